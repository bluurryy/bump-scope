(* LibRefine.v — the arithmetic helpers of the CURRENT src/lib.rs (regenerated into gen/LibArith.v
   on every run) compute what the hand-written models use in their place:
   align_pos = Arena.align_posZ (re-alignment after deallocate / commit / aligned regions),
   min_non_zero_cap = VecCap.min_non_zero_cap (smallest capacity a growing vector asks for),
   bump_down / up_align_usize_unchecked / down_align_usize = the Word.v alignment functions. *)
From Coq Require Import ZArith Lia.
From BS Require Import Word BumpSpec Arena ArenaInv VecCap.
From BS.gen Require LibArith.
Open Scope Z_scope.

Lemma lib_down_align_ok x a :
  pow2 a -> a < W -> 0 <= x < W -> LibArith.down_align_usize x a = Ok (down_alignZ x a).
Proof.
  intros Ha HaW Hx. pose proof (pow2_pos _ Ha). sx_site sx_nocalls. sx_done. reflexivity.
Qed.

Lemma lib_up_align_unchecked_ok x a :
  pow2 a -> 0 <= x -> x + a - 1 < W -> LibArith.up_align_usize_unchecked x a = Ok (up_alignZ x a).
Proof.
  intros Ha Hx Hb. pose proof (pow2_pos _ Ha). sx_site sx_nocalls. sx_done.
  unfold up_alignZ. do 2 f_equal. lia.
Qed.

(* align_pos: the position of a chunk is below its end, which is 16-aligned and below 2^64, so the
   upward re-alignment cannot overflow *)
Theorem align_pos_refines upb m pos :
  valid_min_align m -> 0 <= pos -> pos + m - 1 < W ->
  LibArith.align_pos upb m pos = Ok (align_posZ upb m pos).
Proof.
  intros [Hm Hm16] Hp Hb. pose proof (pow2_pos _ Hm). assert (HmW : m < W) by (unfold W; lia).
  unfold LibArith.align_pos, align_posZ. destruct upb.
  - rewrite lib_up_align_unchecked_ok by (try assumption; lia). reflexivity.
  - rewrite lib_down_align_ok by (try assumption; lia). reflexivity.
Qed.

(* for the position of any chunk of a state that satisfies the invariant the precondition holds:
   the code's align_pos computes the model's re-alignment wherever the model uses it *)
Theorem align_pos_refines_chunk c ch upb m :
  cfg_ok c -> chunk_ok c ch -> valid_min_align m ->
  LibArith.align_pos upb m (cpos ch) = Ok (align_posZ upb m (cpos ch)).
Proof.
  intros Hc [Hg Hpos] Hm. pose proof (geom_bounds c Hc ch Hg) as (H0 & _ & HW & _ & _ & (k & Hk) & _).
  apply align_pos_refines; [exact Hm|lia|]. destruct Hm as [_ Hm16].
  (* content_end is a multiple of 16 below 2^64 *)
  assert (content_end c ch <= W - 16).
  { unfold W in *. assert (k < 2 ^ 60) by lia. lia. }
  lia.
Qed.

Theorem min_non_zero_cap_refines sz : LibArith.min_non_zero_cap sz = Ok (min_non_zero_cap sz).
Proof. reflexivity. Qed.

Theorem lib_bump_down_refines addr size align :
  pow2 align -> align < W -> 0 <= addr < W -> 0 <= size ->
  LibArith.bump_down addr size align = Ok (down_alignZ (Z.max (addr - size) 0) align).
Proof.
  intros Ha HaW Hx Hs. unfold LibArith.bump_down, sat_sub.
  rewrite lib_down_align_ok by (try assumption; lia). reflexivity.
Qed.
