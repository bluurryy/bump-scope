(* ArenaFill.v — C15 for whole fill sequences.  A MutBumpVec / MutBumpVecRev / MutBumpString or a
   *_mut helper, while it is being filled, does two things to the arena: it prepares a range
   (at creation and at every growth) and it writes into the range it was given.  For ANY sequence
   of such steps — growth as often as one likes, refused requests, chunk switches — no chunk up to
   and including the one that was current at the start changes at all (so no bump position in it
   moves and allocated() of those chunks stays), the live blocks stay, the invariant holds; at most
   a later chunk becomes the current one, and that chunk is empty.  Dropping or leaking the
   collection does nothing to the arena, so the state after the sequence is the state after a drop. *)
From Coq Require Import ZArith List Lia.
From BS Require Import Word Arena ArenaInv ArenaInv2.
Import ListNotations.
Open Scope Z_scope.

Definition is_fill (o : op) : Prop :=
  match o with OPrepare _ _ _ _ _ | OWriteRaw _ _ _ => True | _ => False end.

Fixpoint frun (c : cfg) (s : arena) (xs : list (op * resp)) : arena :=
  match xs with [] => s | (o, r) :: t => frun c (fst (step c s o r)) t end.

Fixpoint fok (c : cfg) (s : arena) (xs : list (op * resp)) : Prop :=
  match xs with
  | [] => True
  | (o, r) :: t => is_fill o /\ op_resp_ok2 c s o r /\ fok c (fst (step c s o r)) t
  end.

Definition kept (i : nat) (s s' : arena) : Prop :=
  (forall k, (k <= i)%nat -> nth_error (chunks s') k = nth_error (chunks s) k) /\
  (exists j, cur s' = Cur j /\ (i <= j)%nat) /\
  live s' = live s /\ aligns s' = aligns s /\ depth s' = depth s.

Lemma kept_refl i s : cur s = Cur i -> kept i s s.
Proof. intros E. split; [reflexivity|]. split; [exists i; split; [exact E|lia]|]. repeat split. Qed.

Lemma kept_trans i j a b d :
  kept i a b -> cur b = Cur j -> kept j b d -> kept i a d.
Proof.
  intros (P1 & (j1 & E1 & L1) & V1 & A1 & D1) Ej (P2 & (j2 & E2 & L2) & V2 & A2 & D2).
  assert (j1 = j) by congruence. subst j1.
  split; [intros k Hk; rewrite (P2 k ltac:(lia)); apply P1; exact Hk|].
  split; [exists j2; split; [exact E2|lia]|]. split; [congruence|]. split; congruence.
Qed.

Definition fresh (c : cfg) (ch : chunk) : Prop := cpos ch = fresh_pos c ch.

Lemma fresh_empty c ch : fresh c ch -> allocated_in c ch = 0.
Proof. unfold fresh, allocated_in, fresh_pos. intros ->. destruct (up c); lia. Qed.

Lemma reset_chunk_fresh c ch : fresh c (reset_chunk c ch).
Proof. reflexivity. Qed.

Lemma walk_next_resets {R} c (f : chunk -> option (R * chunk))
      (Hsame : forall ch p ch1, f ch = Some (p, ch1) -> ch1 = ch) :
  forall fuel cs i cs' j res, walk_next c f cs i fuel = (cs', j, res) ->
  (i <= j)%nat /\ length cs' = length cs /\
  (forall k, (k <= i)%nat -> nth_error cs' k = nth_error cs k) /\
  (forall k, (i < k <= j)%nat -> exists ch, nth_error cs k = Some ch /\ nth_error cs' k = Some (reset_chunk c ch)) /\
  (forall k, (j < k)%nat -> nth_error cs' k = nth_error cs k).
Proof.
  intros fuel cs i cs' j res H. destruct (walk_next_char c f _ _ _ _ _ _ H) as (Hij & Hlen & Hout & Hmid & _).
  split; [exact Hij|]. split; [exact Hlen|]. split; [intros k Hk; apply Hout; left; exact Hk|].
  split; [|intros k Hk; apply Hout; right; exact Hk].
  intros k Hk. destruct (Hmid k Hk) as (ch & En & Hch). exists ch. split; [exact En|].
  destruct (f (reset_chunk c ch)) as [[x ch1]|] eqn:Ef; [rewrite <- (Hsame _ _ _ Ef)|]; apply Hch.
Qed.

Definition later_empty (c : cfg) (i : nat) (s' : arena) : Prop :=
  exists j, cur s' = Cur j /\ (i <= j)%nat /\
    forall k chk, (i < k <= j)%nat -> nth_error (chunks s') k = Some chk -> fresh c chk.

Lemma later_empty_refl c i s : cur s = Cur i -> later_empty c i s.
Proof. intros E. exists i. split; [exact E|]. split; [lia|]. intros k chk Hk. lia. Qed.

Lemma later_empty_trans c i j b d :
  later_empty c i b -> cur b = Cur j -> kept j b d -> later_empty c j d -> later_empty c i d.
Proof.
  intros (j1 & E1 & L1 & F1) Ej (P & _) (j2 & E2 & L2 & F2). assert (j1 = j) by congruence. subst j1.
  exists j2. split; [exact E2|]. split; [lia|]. intros k chk Hk E. destruct (le_lt_dec k j) as [Hle|Hgt].
  - rewrite (P k Hle) in E. apply (F1 k chk); [lia|exact E].
  - apply (F2 k chk); [lia|exact E].
Qed.

(* the walk resets the chunks it passes and the one it stops at, and a chunk that is appended is
   new *)
Lemma prepare_kept c s i chi size align r s1 res :
  cur s = Cur i -> nth_error (chunks s) i = Some chi ->
  raw_prepare_range c s size align r = (s1, res) -> kept i s s1 /\ later_empty c i s1.
Proof.
  intros Ec Eni H. pose proof (nth_error_some_lt _ _ _ Eni) as Hilt.
  rewrite raw_prepare_range_fast_or_slow in H. set (f := prepare_action c size align) in *.
  pose proof (prepare_action_readonly c size align : forall ch p ch1, f ch = Some (p, ch1) -> ch1 = ch) as Hsame.
  destruct (fast_or_slow_cases c s size align f r s1 res H) as [(i' & ch & x & ch1 & _ & En & Ef & -> & _)|[Hslow|((i' & Ec' & En') & _)]];
    [|clear H; rename Hslow into H; rewrite Ec in H|congruence].
  { rewrite (Hsame _ _ _ Ef), (upd_chunks_same s i' ch En). split; [apply kept_refl|apply later_empty_refl]; exact Ec. }
  destruct (in_another_chunk_cases _ _ _ _ _ _ _ _ _ H) as ((Flive & _ & Fdepth & Faligns & _) & cs & j & wres & Ew & Hcase).
  destruct (walk_next_resets c f Hsame _ _ _ _ _ _ Ew) as (Hij & Hlen & Hpre & Hmid & _).
  enough (exists t j', chunks s1 = cs ++ t /\ cur s1 = Cur j' /\ (i <= j')%nat /\
            forall k chk, (i < k <= j')%nat -> nth_error (cs ++ t) k = Some chk -> fresh c chk) as (t & j' & Ech & Ecu & Hij' & Hfr).
  { split; [|exists j'; rewrite Ech; auto].
    split; [intros k Hk; rewrite Ech, nth_error_app1 by lia; exact (Hpre k Hk)|]. split; [exists j'; auto|auto]. }
  assert (Hfresh_mid : forall k chk, (i < k <= j)%nat -> nth_error cs k = Some chk -> fresh c chk).
  { intros k chk Hk E. destruct (Hmid k Hk) as (ch0 & _ & E2). rewrite E in E2. injection E2 as ->. apply reset_chunk_fresh. }
  destruct wres as [x|]; [|destruct Hcase as [Hcase|(n & addr & g & _ & _ & Ecu & Hmk)]].
  - exists [], j. rewrite app_nil_r. destruct Hcase as (Ech & Ecu & _). auto.
  - exists [], i. rewrite app_nil_r. destruct Hcase as (Ech & Ecu & _). split; [exact Ech|]. split; [exact Ecu|]. split; [lia|]. intros; lia.
  - (* the walk ran to the end, so the appended chunk comes right after the ones it reset; whether
       or not it takes the request, it is appended as it was made *)
    assert (Hlast : (length cs <= S j)%nat) by (eapply walk_next_none_last; [|exact Ew]; lia).
    set (mk := make_chunk c n addr g) in *. exists [mk], (length cs).
    assert (Ech : chunks s1 = cs ++ [mk]) by (destruct (f mk) as [[x ch1]|] eqn:Efm; [rewrite <- (Hsame _ _ _ Efm)|]; apply Hmk).
    split; [exact Ech|]. split; [exact Ecu|]. split; [lia|]. intros k chk Hk E.
    destruct (Nat.eq_dec k (length cs)) as [->|Hne].
    + rewrite nth_error_app_last in E. injection E as <-. apply reset_chunk_fresh.
    + rewrite nth_error_app1 in E by lia. apply (Hfresh_mid k chk); [lia|exact E].
Qed.

Lemma fill_step c s0 o r i :
  inv c s0 -> cur s0 = Cur i -> is_fill o -> kept i s0 (fst (step c s0 o r)) /\ later_empty c i (fst (step c s0 o r)).
Proof.
  intros Hinv Ec Hf. destruct (ginv_cur c s0 i (proj1 Hinv) Ec) as (chi & Eni & _).
  assert (H0 : forall s1, chunks s1 = chunks s0 -> cur s1 = cur s0 -> live s1 = live s0 -> aligns s1 = aligns s0 ->
            depth s1 = depth s0 -> kept i s0 s1 /\ later_empty c i s1).
  { intros s1 E1 E2 E3 E4 E5. rewrite Ec in E2. split; [|apply later_empty_refl; exact E2].
    split; [rewrite E1; reflexivity|]. split; [exists i; split; [exact E2|lia]|auto]. }
  destruct o; try destruct Hf; cbn [step]; [|apply H0; reflexivity]. set (s := tick s0).
  destruct (negb (is_top s h)); [apply H0; reflexivity|].
  destruct (IMAX <? es * cap + (ea - 1)); [apply H0; reflexivity|].
  pose proof (prepare_kept c s i chi (es * cap) ea r _ _ Ec Eni (surjective_pairing _)) as K.
  destruct (raw_prepare_range c s (es * cap) ea r) as [s1 [[st en]|e]]; exact K.
Qed.

Lemma fill_sequence c : forall xs s i,
  cfg_ok c -> inv c s -> cur s = Cur i -> fok c s xs ->
  inv c (frun c s xs) /\ kept i s (frun c s xs) /\ later_empty c i (frun c s xs).
Proof.
  induction xs as [|[o r] t IH]; intros s i Hc Hinv Ec Hok.
  - cbn. split; [exact Hinv|]. split; [apply kept_refl|apply later_empty_refl]; exact Ec.
  - destruct Hok as (Hf & Hr & Ht). cbn [frun].
    assert (Hok2 : op_ok2 c s o) by (destruct o; try destruct Hf; exact I).
    pose proof (step_inv c s o r Hc Hinv Hok2 Hr) as Hinv1.
    destruct (fill_step c s o r i Hinv Ec Hf) as (K1 & L1).
    pose proof K1 as (_ & (j & Ej & Hij) & _).
    destruct (IH _ j Hc Hinv1 Ej Ht) as (Hinv2 & K2 & L2).
    split; [exact Hinv2|]. split; [exact (kept_trans i j _ _ _ K1 Ej K2)|exact (later_empty_trans c i j _ _ L1 Ej K2 L2)].
Qed.

Theorem fill_sequence_keeps c : forall xs s i,
  cfg_ok c -> inv c s -> cur s = Cur i -> fok c s xs ->
  inv c (frun c s xs) /\ kept i s (frun c s xs).
Proof. intros xs s i Hc Hinv Ec Hok. destruct (fill_sequence c xs s i Hc Hinv Ec Hok) as (A & B & _). exact (conj A B). Qed.

Corollary fill_sequence_keeps_positions c xs s i :
  cfg_ok c -> inv c s -> cur s = Cur i -> fok c s xs ->
  forall k ch, (k <= i)%nat -> nth_error (chunks s) k = Some ch ->
  exists ch', nth_error (chunks (frun c s xs)) k = Some ch' /\ cpos ch' = cpos ch /\ allocated_in c ch' = allocated_in c ch.
Proof.
  intros Hc Hinv Ec Hok k ch Hk En. destruct (fill_sequence_keeps c xs s i Hc Hinv Ec Hok) as (_ & (P & _)).
  exists ch. rewrite (P k Hk). split; [exact En|]. split; reflexivity.
Qed.

(* C15: "at most a later, still empty chunk becomes the current one" *)
Theorem fill_sequence_later_chunks_empty c : forall xs s i,
  cfg_ok c -> inv c s -> cur s = Cur i -> fok c s xs -> later_empty c i (frun c s xs).
Proof. intros xs s i Hc Hinv Ec Hok. apply (fill_sequence c xs s i Hc Hinv Ec Hok). Qed.

(* non-vacuity: a fill sequence that outgrows two chunks *)
Module FillExample.
  Definition c0 : cfg := mkCfg true false true true 512 32 16 true.
  Definition s0 : arena := fst (init_with_size c0 1 512 (Some (65536, 512))).
  Definition xs : list (op * resp) :=
    [(OPrepare 0 8 8 4 false, None); (OWriteRaw 65568 32 7, None);
     (OPrepare 0 8 8 100 false, Some (131072, 1024)); (OWriteRaw 131104 64 9, None);
     (OPrepare 0 8 8 400 false, Some (262144, 4096))].
  Example outgrows_two_chunks :
    cur s0 = Cur 0 /\ cur (frun c0 s0 xs) = Cur 2 /\
    map cpos (chunks (frun c0 s0 xs)) = [65568; 131104; 262176] /\
    map (allocated_in c0) (chunks (frun c0 s0 xs)) = [0; 0; 0].
  Proof. vm_compute. repeat split; reflexivity. Qed.
End FillExample.
