(* ArenaExt.v — claims (C14), minimum-alignment regions (C18, with the step lemmas of OAlignPush /
   OAlignPop), commits of prepared slices (C15), the interchangeability of entry points (C17: hints
   over Bumping, dyn and typed commit over the arena model); then make_chunk_fits (a chunk made for
   a layout has room for it: allocation and preparation never fail on it) and what preparing a
   slice and a failed request keep. *)
From Coq Require Import ZArith List Bool Lia.
From BS Require Import Word BumpSpec BumpRefine ChunkSpec Arena ArenaInv ArenaStats ArenaMem ArenaMisc.
From BS.gen Require Bumping.
Import ListNotations.
Open Scope Z_scope.

(* C14: claims *)
Theorem claimed_requests_fail c s h r :
  h <> depth s ->
  (forall ws size align z, step c s (OAlloc h ws size align z) r = (tick s, mkOut (RErr ErrClaimed) [] false)) /\
  (forall n, step c s (OReserve h n) r = (tick s, mkOut (RErr ErrClaimed) [] false)) /\
  (forall mu size align, step c s (OTryErr h mu size align) r = (tick s, mkOut (RErr ErrClaimed) [] false)) /\
  (forall es ea cap rev, step c s (OPrepare h es ea cap rev) r = (tick s, mkOut (RErr ErrClaimed) [] false)).
Proof.
  intros Hne. pose proof (is_top_tick_other s h Hne) as Ht.
  repeat split; intros; cbn [step]; rewrite Ht; cbn [negb]; rewrite new_events_nil by reflexivity; reflexivity.
Qed.

Theorem claimed_grow_fails c s h ws b blk nsize nalign z r :
  h <> depth s -> find_block (tick s) b = Some blk ->
  step c s (OGrow h ws b nsize nalign z) r = (tick s, mkOut (RErr ErrClaimed) [] false).
Proof.
  intros Hne Hf. cbn [step]. rewrite Hf, (is_top_tick_other s h Hne). cbn [negb].
  rewrite new_events_nil by reflexivity. reflexivity.
Qed.

Theorem claimed_dealloc_noop c s h ws b r :
  h <> depth s ->
  let s' := fst (step c s (ODealloc h ws b) r) in
  chunks s' = chunks s /\ cur s' = cur s /\ (forall a, mem s' a = mem s a) /\ depth s' = depth s.
Proof.
  intros Hne. cbv zeta. cbn [step]. destruct (find_block (tick s) b); [|repeat split].
  rewrite (is_top_tick_other s h Hne). cbn [negb orb fst]. repeat split.
Qed.

Theorem claimed_shrink_noop c s h ws b nsize nalign r :
  h <> depth s ->
  let s' := fst (step c s (OShrink h ws b nsize nalign) r) in
  chunks s' = chunks s /\ cur s' = cur s /\ (forall a, mem s' a = mem s a) /\ depth s' = depth s /\
  forall blk, find_block (tick s) b = Some blk ->
    o_res (snd (step c s (OShrink h ws b nsize nalign) r)) =
      (if divides nalign (bptr blk)
       then RBlock (nextid (tick s)) (bptr blk) (if has_wrapper WShrink ws then nsize else bsize blk)
       else RErr ErrClaimed).
Proof.
  intros Hne. cbv zeta. cbn [step].
  destruct (find_block (tick s) b) as [blk|] eqn:Efb; [|repeat split; intros blk0 Hb; discriminate].
  rewrite (is_top_tick_other s h Hne). cbn [negb andb].
  assert (Hblk : forall P : block -> Prop, P blk -> forall blk0, Some blk = Some blk0 -> P blk0)
    by (intros P HP blk0 [= <-]; exact HP).
  destruct (has_wrapper WShrink ws), (divides nalign (bptr blk)) eqn:Ed; cbn [andb negb];
    unfold ws_shrink; rewrite ?Ed; cbn [fst snd ro_ptr ro_size ro_ub];
    repeat split; apply Hblk; rewrite Ed; reflexivity.
Qed.

Theorem claimed_stats_zero c s h r :
  h <> depth s -> o_res (snd (step c s (OStats h) r)) = RStats (mkStats 0 0 0 0 0) true.
Proof. intros Hne. cbn [step]. rewrite (is_top_tick_other s h Hne). reflexivity. Qed.

Theorem second_claim_panics c s h r :
  h <> depth s -> step c s (OClaim h) r = (tick s, mkOut RPanic [] false).
Proof.
  intros Hne. cbn [step]. rewrite (is_top_tick_other s h Hne), new_events_nil by reflexivity. reflexivity.
Qed.

Theorem claim_unclaim_only_move_the_handle c s r :
  let s1 := fst (step c s (OClaim (depth s)) r) in
  let s2 := fst (step c s OUnclaim r) in
  (chunks s1 = chunks s /\ cur s1 = cur s /\ live s1 = live s /\ (forall a, mem s1 a = mem s a) /\ depth s1 = S (depth s)) /\
  (chunks s2 = chunks s /\ cur s2 = cur s /\ live s2 = live s /\ (forall a, mem s2 a = mem s a) /\ depth s2 = pred (depth s)).
Proof.
  cbv zeta. cbn [step]. unfold is_top. cbn [tick depth]. rewrite Nat.eqb_refl. cbn [fst]. repeat split.
Qed.

Lemma align_pos_between upb m x lo hi :
  valid_min_align m -> (16 | lo) -> (16 | hi) -> lo <= x <= hi ->
  lo <= align_posZ upb m x <= hi /\ (m | align_posZ upb m x) /\
  (if upb then x <= align_posZ upb m x else align_posZ upb m x <= x).
Proof.
  intros Hm Hlo Hhi Hr. pose proof (min_align_pos _ Hm) as Hmp.
  unfold align_posZ. destruct upb.
  - pose proof (up_align_ge x m Hmp).
    assert (up_alignZ x m <= hi) by (apply up_align_min; [exact Hmp|exact (min_align_divides m hi Hm Hhi)|lia]).
    split; [lia|]. split; [apply up_align_div; exact Hmp|lia].
  - pose proof (down_align_le x m Hmp).
    assert (lo <= down_alignZ x m) by (apply down_align_max; [exact Hmp|exact (min_align_divides m lo Hm Hlo)|lia]).
    split; [lia|]. split; [apply down_align_div; exact Hmp|lia].
Qed.

(* by live_block_vs_cur the position of the current chunk may move towards the free side *)
Lemma set_cur_pos_free_side c s i ch np :
  cfg_ok c -> inv c s -> cur s = Cur i -> nth_error (chunks s) i = Some ch ->
  content_start c ch <= np <= content_end c ch -> (malign s | np) ->
  (if up c then cpos ch <= np else np <= cpos ch) ->
  inv c (set_cur_pos s np).
Proof.
  intros Hc Hinv Ec En Hr Hdiv Hdir. apply (set_cur_pos_inv c s i ch np Hinv Ec En Hr Hdiv).
  intros b Hbin Hpos Hinc. destruct (live_block_vs_cur c s i ch b Hc Hinv Ec En Hbin Hpos) as [Hs|Hdis].
  - destruct (up c); lia.
  - specialize (Hdis (bptr b) (bsize b) Hinc). unfold disjoint_rng in Hdis. lia.
Qed.

Lemma realign_inv c s n :
  cfg_ok c -> inv c s -> valid_min_align n -> malign s <= n ->
  forall ch, cur_chunk s = Some ch -> inv c (set_cur_pos s (align_posZ (up c) n (cpos ch))).
Proof.
  intros Hc Hinv Hn Hle ch Ecc. pose proof Hinv as ((Hok & _ & Hm & _) & _).
  destruct (cur_chunk_spec s ch Ecc) as (i & Ec & En).
  destruct (Forall_nth_error _ _ _ _ Hok En) as [Hgeo Hp].
  pose proof (geom_bounds c Hc ch Hgeo) as (_ & _ & _ & _ & Hs16 & He16 & _).
  destruct (align_pos_between (up c) n (cpos ch) _ _ Hn Hs16 He16 Hp) as (Hr & Hdiv & Hdir).
  apply (set_cur_pos_free_side c s i ch _ Hc Hinv Ec En Hr); [|exact Hdir].
  (* malign s divides n-aligned positions: both are powers of two *)
  eapply Z.divide_trans; [|exact Hdiv]. apply pow2_divide; [exact (proj1 Hm)|exact (proj1 Hn)|exact Hle].
Qed.

Lemma align_pos_div upb n x : valid_min_align n -> (n | align_posZ upb n x).
Proof.
  intros Hn. pose proof (min_align_pos _ Hn). unfold align_posZ.
  destruct upb; [apply up_align_div|apply down_align_div]; assumption.
Qed.

Lemma cur_pos_aligned_le c s n :
  ginv c s -> valid_min_align n -> n <= malign s -> forall ch, cur_chunk s = Some ch -> (n | cpos ch).
Proof.
  intros Hg Hn Hle ch Hcc. destruct (cur_chunk_spec s ch Hcc) as (i & Ec & En).
  eapply Z.divide_trans; [|exact (proj2 (ginv_cur_chunk c s i ch Hg Ec En))].
  destruct Hg as (_ & _ & Hm & _). apply pow2_divide; [exact (proj1 Hn)|exact (proj1 Hm)|exact Hle].
Qed.

Lemma inv_change_aligns c s l :
  inv c s -> valid_min_align (hd 1 l) ->
  (forall ch, cur_chunk s = Some ch -> (hd 1 l | cpos ch)) ->
  inv c (upd_aligns s l).
Proof.
  intros Hinv Hv Hal. apply winv_inv; [|exact Hal].
  apply (winv_ext c s); try reflexivity; [exact Hv|apply inv_winv; exact Hinv].
Qed.

(* C18: raising the minimum alignment aligns the position at entry; every block stays where it is *)
Theorem step_inv_align_push c s0 h n r :
  cfg_ok c -> inv c s0 -> valid_min_align n ->
  inv c (fst (step c s0 (OAlignPush h n) r)) /\
  malign (fst (step c s0 (OAlignPush h n) r)) = n.
Proof.
  intros Hc Hinv Hn. apply inv_tick in Hinv. cbn [step]. set (s := tick s0) in *. cbn [fst].
  split; [|reflexivity].
  destruct (Z.ltb_spec (malign s) n) as [Hlt|Hge]; [destruct (cur_chunk s) as [ch|] eqn:Ecc|];
    (apply inv_change_aligns; [|exact Hn|]); cbn [hd].
  - apply realign_inv; [exact Hc|exact Hinv|exact Hn|lia|exact Ecc].
  - intros ch' Hcc'. rewrite (cur_chunk_set_cur_pos s ch _ Ecc) in Hcc'. injection Hcc' as <-.
    apply align_pos_div. exact Hn.
  - exact Hinv.
  - intros ch Hcc. congruence.
  - exact Hinv.
  - apply (cur_pos_aligned_le c); [exact (proj1 Hinv)|exact Hn|exact Hge].
Qed.

Lemma inv_pop_aligns c s inner outer rest :
  inv c s -> aligns s = inner :: outer :: rest -> valid_min_align outer -> outer <= inner ->
  inv c (upd_aligns s (outer :: rest)).
Proof.
  intros Hinv Hal Hout Hle. apply inv_change_aligns; [exact Hinv|exact Hout|].
  apply (cur_pos_aligned_le c); [exact (proj1 Hinv)|exact Hout|]. unfold malign. rewrite Hal. exact Hle.
Qed.

(* realign = true: leaving `aligned::<N>` *)
Theorem step_inv_align_pop c s0 r inner outer rest :
  cfg_ok c -> inv c s0 -> aligns s0 = inner :: outer :: rest -> valid_min_align outer ->
  inv c (fst (step c s0 (OAlignPop true) r)).
Proof.
  intros Hc Hinv Hal Hout. apply inv_tick in Hinv. cbn [step]. set (s := tick s0) in *.
  assert (Hal' : aligns s = inner :: outer :: rest) by exact Hal. rewrite Hal'.
  cbn [andb]. destruct (Z.ltb_spec inner outer) as [Hlt|Hge].
  - destruct (cur_chunk (upd_aligns s (outer :: rest))) as [ch|] eqn:Ecc; cbn [fst];
      change (cur_chunk s = Some ch) in Ecc || change (cur_chunk s = None) in Ecc.
    + rewrite set_cur_pos_upd_aligns. apply inv_change_aligns; [|exact Hout|].
      * apply realign_inv; [exact Hc|exact Hinv|exact Hout| |exact Ecc]. unfold malign. rewrite Hal'. cbn [hd]. lia.
      * intros ch' Hcc'. rewrite (cur_chunk_set_cur_pos s ch _ Ecc) in Hcc'. injection Hcc' as <-.
        apply align_pos_div. exact Hout.
    + apply inv_change_aligns; [exact Hinv|exact Hout|]. intros ch Hcc. congruence.
  - cbn [fst]. eapply inv_pop_aligns; eassumption.
Qed.

(* realign = false: leaving `scoped_aligned::<N>` whose alignment was not lower than the outer one *)
Theorem step_inv_align_pop_not_lowered c s0 r inner outer rest :
  inv c s0 -> aligns s0 = inner :: outer :: rest -> valid_min_align outer -> outer <= inner ->
  inv c (fst (step c s0 (OAlignPop false) r)).
Proof.
  intros Hinv Hal Hout Hle. apply inv_tick in Hinv. cbn [step]. set (s := tick s0) in *.
  assert (Hal' : aligns s = inner :: outer :: rest) by exact Hal. rewrite Hal'.
  cbn [andb fst]. eapply inv_pop_aligns; eassumption.
Qed.

Theorem align_pop_realigns c s0 inner outer rest r :
  cfg_ok c -> inv c s0 -> aligns s0 = inner :: outer :: rest -> valid_min_align outer ->
  let s' := fst (step c s0 (OAlignPop true) r) in
  malign s' = outer /\ forall ch, cur_chunk s' = Some ch -> (outer | cpos ch).
Proof.
  intros Hc Hinv Hal Hout s'.
  assert (Hm : malign s' = outer).
  { unfold s'. cbn [step]. change (aligns (tick s0)) with (aligns s0). rewrite Hal.
    destruct (true && (inner <? outer)); [destruct (cur_chunk _)|]; cbn [fst]; rewrite ?set_cur_pos_upd_aligns; reflexivity. }
  split; [exact Hm|]. rewrite <- Hm.
  exact (proj2 (position_and_geometry c s' (proj1 (step_inv_align_pop c s0 r inner outer rest Hc Hinv Hal Hout)))).
Qed.

Lemma commit_pos_bounds c m ea dyn x :
  valid_min_align m ->
  (if up c then x <= commit_pos c m ea dyn x < x + m else x - m < commit_pos c m ea dyn x <= x).
Proof.
  intros Hm. pose proof (min_align_pos _ Hm) as Hp. unfold commit_pos, align_posZ.
  destruct (dyn || (ea <? m)); destruct (up c); cbv iota; try lia.
  - pose proof (up_align_ge x m Hp). pose proof (up_align_lt x m Hp). lia.
  - pose proof (down_align_le x m Hp). pose proof (down_align_gt x m Hp). lia.
Qed.

Lemma commit_pos_in_range c m ea dyn x lo_ hi_ :
  valid_min_align m -> pow2 ea -> (ea | x) -> (16 | lo_) -> (16 | hi_) -> lo_ <= x <= hi_ ->
  lo_ <= commit_pos c m ea dyn x <= hi_ /\ (m | commit_pos c m ea dyn x) /\
  (if up c then x <= commit_pos c m ea dyn x else commit_pos c m ea dyn x <= x).
Proof.
  intros Hm Hea Hx Hlo Hhi Hr. unfold commit_pos. destruct (dyn || (ea <? m)) eqn:E.
  - apply align_pos_between; assumption.
  - (* not re-aligned: the element alignment is at least the minimum alignment *)
    apply orb_false_iff in E. destruct E as [_ E]. apply Z.ltb_ge in E.
    split; [exact Hr|]. split; [|destruct (up c); lia].
    eapply Z.divide_trans; [|exact Hx]. apply pow2_divide; [exact (proj1 Hm)|exact Hea|exact E].
Qed.

(* the hypothesis (ea | x) always holds: prepared ranges have aligned ends *)
Lemma commit_pos_dyn_eq c m ea x :
  valid_min_align m -> pow2 ea -> (ea | x) -> commit_pos c m ea true x = commit_pos c m ea false x.
Proof.
  intros Hm Hea Hdiv. pose proof (min_align_pos _ Hm) as Hp. unfold commit_pos. cbn [orb].
  destruct (Z.ltb_spec ea m); [reflexivity|].
  assert (Hmx : (m | x)) by (eapply Z.divide_trans; [|exact Hdiv]; apply pow2_divide; [exact (proj1 Hm)|exact Hea|lia]).
  unfold align_posZ. destruct (up c); cbv iota; [apply up_align_id|apply down_align_id]; assumption.
Qed.

(* C15: committing (forward, upwards) advances the position by the contents plus less than one
   minimum alignment, registers exactly the written bytes as the new block, and writes nothing *)
Theorem commit_up_advance c s h es ea ptr len cap dyn r :
  up c = true -> valid_min_align (malign s) ->
  let '(s', out) := step c s (OCommit h es ea ptr len cap false dyn) r in
  (exists id, o_res out = RBlock id ptr (len * es)) /\
  (forall a, mem s' a = mem s a) /\
  (forall ch, cur_chunk s = Some ch -> exists ch', cur_chunk s' = Some ch' /\
     ptr + len * es <= cpos ch' < ptr + len * es + malign s).
Proof.
  intros Hup Hm. cbn [step]. rewrite Hup. unfold add_block. cbn [o_res mem bump_id upd_live].
  split; [eexists; reflexivity|]. split.
  - intros a. rewrite set_cur_pos_mem. reflexivity.
  - intros ch Hcc. eexists. split; [exact (cur_chunk_set_cur_pos (tick s) ch _ Hcc)|].
    cbn [set_pos cpos]. pose proof (commit_pos_bounds c (malign s) ea dyn (ptr + len * es) Hm) as Hb.
    rewrite Hup in Hb. exact Hb.
Qed.

(* committing downwards moves the filled prefix to the end of the prepared range: the new block
   holds exactly the bytes that were written at the start *)
Theorem commit_down_contents c s h es ea ptr len cap dyn r :
  up c = false ->
  let '(s', out) := step c s (OCommit h es ea ptr len cap false dyn) r in
  let dst := ptr + cap * es - len * es in
  (exists id, o_res out = RBlock id dst (len * es)) /\
  (forall k, 0 <= k < len * es -> mem s' (dst + k) = mem s (ptr + k)) /\
  (forall a, ~ (dst <= a < dst + len * es) -> mem s' a = mem s a).
Proof.
  intros Hup. cbn [step]. rewrite Hup. unfold add_block. cbn [o_res mem bump_id upd_live].
  split; [eexists; reflexivity|]. split.
  - intros k Hk. rewrite set_cur_pos_mem. cbn [mem upd_mem tick]. rewrite mem_copy_inside by lia. f_equal. lia.
  - intros a Ha. rewrite set_cur_pos_mem. cbn [mem upd_mem tick]. apply mem_copy_outside. exact Ha.
Qed.

(* C17: the three LayoutProps classes (and every other truthful hint combination) give the same
   result: a direct corollary of the refinement theorems of C11 *)
Theorem hints_do_not_matter_up start end_ m size align ac sc mu ac' sc' mu' :
  valid_min_align m -> valid_layout size align -> valid_up start end_ m ->
  (mu = true -> (align | size)) -> (mu' = true -> (align | size)) ->
  Bumping.bump_up (Bumping.mkBumpProps start end_ m (mkLayout size align) ac sc mu) =
  Bumping.bump_up (Bumping.mkBumpProps start end_ m (mkLayout size align) ac' sc' mu').
Proof.
  intros Hm Hl Hv H1 H2.
  rewrite (bump_up_refines start end_ m size align ac sc mu Hm Hl Hv H1).
  rewrite (bump_up_refines start end_ m size align ac' sc' mu' Hm Hl Hv H2). reflexivity.
Qed.

Theorem hints_do_not_matter_down start end_ m size align ac sc mu ac' sc' mu' :
  valid_min_align m -> valid_layout size align -> valid_down start end_ m ->
  (mu = true -> (align | size)) -> (mu' = true -> (align | size)) ->
  Bumping.bump_down (Bumping.mkBumpProps start end_ m (mkLayout size align) ac sc mu) =
  Bumping.bump_down (Bumping.mkBumpProps start end_ m (mkLayout size align) ac' sc' mu').
Proof.
  intros Hm Hl Hv H1 H2.
  rewrite (bump_down_refines start end_ m size align ac sc mu Hm Hl Hv H1).
  rewrite (bump_down_refines start end_ m size align ac' sc' mu' Hm Hl Hv H2). reflexivity.
Qed.

Theorem dyn_commit_equals_typed c s h es ea ptr len cap rev r :
  valid_min_align (malign s) -> pow2 ea ->
  (ea | ptr) -> (ea | es) ->
  step c s (OCommit h es ea ptr len cap rev true) r = step c s (OCommit h es ea ptr len cap rev false) r.
Proof.
  intros Hm Hea Hp Hes.
  assert (Hd : forall x, (ea | x) -> commit_pos c (malign (tick s)) ea true x = commit_pos c (malign (tick s)) ea false x).
  { intros x Hx. apply commit_pos_dyn_eq; assumption. }
  assert (Hmul : forall k, (ea | k * es)) by (intros k; apply Z.divide_mul_r; exact Hes).
  cbn [step]. destruct rev; destruct (up c).
  - rewrite Hd; [reflexivity|]. replace (ptr - cap * es + len * es) with (ptr + (len - cap) * es) by lia.
    apply Z.divide_add_r; [exact Hp|apply Hmul].
  - rewrite Hd; [reflexivity|]. apply Z.divide_sub_r; [exact Hp|apply Hmul].
  - rewrite Hd; [reflexivity|]. apply Z.divide_add_r; [exact Hp|apply Hmul].
  - rewrite Hd; [reflexivity|]. replace (ptr + cap * es - len * es) with (ptr + (cap - len) * es) by lia.
    apply Z.divide_add_r; [exact Hp|apply Hmul].
Qed.

(* the chunk appended for a layout has room for that layout: the `unreachable_unchecked` at the
   end of RawBump::in_another_chunk is never reached, for allocation and for preparation *)
Lemma make_chunk_fits c prev size align m n addr g :
  cfg_ok c -> valid_layout size align -> valid_min_align m ->
  new_chunk_size c prev size align = Some n -> n <= g -> (ha c | addr) ->
  chunk_alloc c m (make_chunk c n addr g) size align <> None /\
  ((align | size) -> chunk_prepare c (make_chunk c n addr g) size align <> None).
Proof.
  intros [Hh Hmc] Hl Hm En Hg Hb. destruct (new_chunk_size_some _ _ _ _ _ En) as (hint & -> & Hhint & _).
  pose proof (fresh_chunk_fits (up c) (hs c) (ha c) Hh size align m Hl Hm hint g addr Hhint Hg Hb) as [Hu Hd].
  cbv zeta in Hu, Hd.
  unfold chunk_alloc, chunk_prepare, make_chunk, fresh_pos, content_start, content_end.
  cbn [cpos cbase csize set_pos].
  destruct (up c) eqn:Eup.
  - specialize (Hu eq_refl). split.
    + destruct (spec_up _ _ m size align) as [[p np]|]; [discriminate|exfalso; apply Hu; reflexivity].
    + intros _. eapply spec_prep_up_fits. exact Hu.
  - specialize (Hd eq_refl). split.
    + destruct (spec_down _ _ m size align) as [p|]; [discriminate|exfalso; apply Hd; reflexivity].
    + intros Hmul. apply (spec_prep_down_fits _ _ m); assumption.
Qed.

Lemma prepare_fits_fresh c size align m :
  cfg_ok c -> valid_layout size align -> valid_min_align m -> (align | size) ->
  fits_fresh c (prepare_action c size align) size align.
Proof.
  intros Hc Hl Hm Hmul prev n addr g En Hng Hb. unfold prepare_action.
  destruct (chunk_prepare c (make_chunk c n addr g) size align) eqn:E; [discriminate|]. exfalso.
  exact (proj2 (make_chunk_fits c prev size align m n addr g Hc Hl Hm En Hng Hb) Hmul E).
Qed.

Theorem prepare_keeps_positions c s i size align r s1 res :
  cfg_ok c -> ginv c s -> cur s = Cur i ->
  raw_prepare_range c s size align r = (s1, res) ->
  (forall k, (k <= i)%nat -> nth_error (chunks s1) k = nth_error (chunks s) k) /\
  (exists j, cur s1 = Cur j /\ (i <= j)%nat).
Proof.
  intros _ Hg Ec H. rewrite raw_prepare_range_fast_or_slow in H.
  destruct (fast_or_slow_cases_ginv c s size align _ r s1 res Hg H) as [(i' & ch & x & ch1 & _ & En & Ef & -> & _)|Hslow].
  - rewrite (prepare_action_readonly _ _ _ _ _ _ Ef), (upd_chunks_same s i' ch En).
    split; [reflexivity|]. exists i. split; [exact Ec|lia].
  - rewrite Ec in Hslow.
    destruct (proj2 (in_another_chunk_shape _ _ _ _ _ _ _ _ _ Hslow) i eq_refl (ginv_cur_lt c s i Hg Ec)) as (Hpre & Hj & _).
    exact (conj Hpre Hj).
Qed.

(* a prepare (the growth of a MutBumpVec / MutBumpVecRev / MutBumpString) that fails leaves the
   chunk the outstanding prepared slice lives in current, so that a later commit of that slice
   sets the position of the right chunk *)
Theorem failed_prepare_keeps_current c s i size align r s1 e :
  cfg_ok c -> ginv c s -> cur s = Cur i ->
  valid_layout size align -> (align | size) -> resp_ok c s size align r ->
  raw_prepare_range c s size align r = (s1, inr e) ->
  cur s1 = Cur i /\ (forall k, (k <= i)%nat -> nth_error (chunks s1) k = nth_error (chunks s) k).
Proof.
  intros Hc Hg Ec Hl Hmul Hr H. pose proof Hg as (_ & _ & Hm & _). rewrite raw_prepare_range_fast_or_slow in H.
  pose proof (fast_or_slow_failed c (prepare_action c size align) _ size align s r s1 e Hc Hg Hr
                (prepare_action_ok c size align _) (prepare_fits_fresh c size align _ Hc Hl Hm Hmul) H) as Hf.
  rewrite Ec in Hf. exact Hf.
Qed.

Theorem failed_alloc_keeps_current c s size align r s1 e :
  cfg_ok c -> ginv c s -> valid_layout size align -> resp_ok c s size align r ->
  raw_alloc c s size align r = (s1, inr e) ->
  cur s1 = cur s /\
  match cur s with
  | Cur i => forall k, (k <= i)%nat -> nth_error (chunks s1) k = nth_error (chunks s) k
  | _ => chunks s1 = chunks s
  end.
Proof.
  intros Hc Hg Hl Hr H. pose proof Hg as (_ & _ & Hm & _).
  exact (fast_or_slow_failed c _ _ size align s r s1 e Hc Hg Hr
           (alloc_action_ok c (malign s) size align Hc Hm Hl) (fun prev n addr g En Hng Hb => proj1 (make_chunk_fits c prev size align (malign s) n addr g Hc Hl Hm En Hng Hb)) H).
Qed.

Lemma prepare_keeps c s size align r s' res :
  cfg_ok c -> ginv c s -> resp_ok c s size align r ->
  raw_prepare_range c s size align r = (s', res) ->
  transfer c s s' /\
  match res with
  | inl rng => exists i ch, cur s' = Cur i /\ nth_error (chunks s') i = Some ch /\ chunk_prepare c ch size align = Some rng
  | inr _ => True
  end.
Proof.
  intros Hc Hg Hr H. rewrite raw_prepare_range_fast_or_slow in H.
  exact (fast_or_slow_readonly_keeps c _ _ s size align r s' res Hc Hg Hr (prepare_action_ok c size align _)
           (prepare_action_readonly c size align) H).
Qed.
