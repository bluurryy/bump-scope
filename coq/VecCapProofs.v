(* VecCapProofs.v — the capacity clauses of C08 and the collection-level clause of C07, proved
   for every history of the model VecCap.v. *)
From Coq Require Import ZArith Bool List Lia.
From BS Require Import Word VecCap.
Import ListNotations.
Open Scope Z_scope.

Definition elem_ok (sz al : Z) : Prop := 1 <= sz /\ 1 <= al.

(* vcap s * sz <= IMAX: the buffer is a legal allocation *)
Definition vinv (sz al : Z) (s : vstate) : Prop :=
  0 <= vlen s <= vcap s /\ vcap s * sz <= IMAX.

(* what the allocator may hand out beyond the request (MutBumpVec: the rest of the chunk) *)
Definition got_ok (sz got : Z) : Prop := got * sz <= IMAX.

(* BumpVec's allocator hands out exactly the request *)
Lemma got_ok_0 sz : got_ok sz 0.
Proof. unfold got_ok, IMAX. lia. Qed.

Lemma W_IMAX : IMAX < W. Proof. unfold IMAX, W. lia. Qed.

Lemma min_non_zero_cap_pos sz : 1 <= min_non_zero_cap sz <= 8.
Proof. unfold min_non_zero_cap. destruct (sz =? 1); [lia|]. destruct (sz <=? 1024); lia. Qed.

Lemma layout_ok_bound sz al n : elem_ok sz al -> layout_ok sz al n = true -> n * sz <= IMAX.
Proof. intros [Hs Ha] H. unfold layout_ok in H. apply andb_prop in H. destruct H as [_ H]. apply Z.leb_le in H. lia. Qed.

Lemma grow_to_spec sz al s n grant got s' o :
  grow_to sz al s n grant got = (s', o) ->
  (vo_err o = None /\ s' = mkV (vlen s) (Z.max n got) /\ vo_asked o = true /\ grant = true /\ layout_ok sz al n = true) \/
  (vo_err o <> None /\ s' = s).
Proof.
  unfold grow_to. destruct (layout_ok sz al n) eqn:El; cbn [negb].
  - destruct grant; intros H; injection H as <- <-.
    + left. repeat split; reflexivity.
    + right. split; [discriminate|reflexivity].
  - intros H. injection H as <- <-. right. split; [discriminate|reflexivity].
Qed.

Lemma max_bound sz n got : n * sz <= IMAX -> got * sz <= IMAX -> Z.max n got * sz <= IMAX.
Proof. intros H1 H2. destruct (Z.max_spec n got) as [[_ ->]|[_ ->]]; assumption. Qed.

(* reserve and reserve_exact differ only in the capacity nc they grow to *)
Definition reserve_by (sz al : Z) (s : vstate) (n nc : Z) (grant : bool) (got : Z) : vstate * vout :=
  if vcap s - vlen s <? n then
    if W <=? vlen s + n then (s, mkVO (Some VOverflow) false) else grow_to sz al s nc grant got
  else quiet s.

Definition amortized_cap (sz : Z) (s : vstate) (n : Z) : Z :=
  Z.max (Z.max (if W <=? vcap s * 2 then vlen s + n else vcap s * 2) (vlen s + n)) (min_non_zero_cap sz).

Lemma reserve_by_amortized sz al s n grant got :
  reserve sz al s n grant got = reserve_by sz al s n (amortized_cap sz s n) grant got.
Proof. reflexivity. Qed.

Lemma reserve_exact_by_required sz al s n grant got :
  reserve_exact sz al s n grant got = reserve_by sz al s n (vlen s + n) grant got.
Proof. reflexivity. Qed.

Lemma amortized_cap_bounds sz s n : vcap s * 2 < W ->
  vlen s + n <= amortized_cap sz s n /\ 2 * vcap s <= amortized_cap sz s n /\ min_non_zero_cap sz <= amortized_cap sz s n.
Proof. intros H. unfold amortized_cap. destruct (Z.leb_spec W (vcap s * 2)); lia. Qed.

(* arguments a caller can pass: usize *)
Definition vop_ok (o : vop) : Prop :=
  match o with
  | VReserve n | VReserveExact n | VExtend n | VTruncate n | VShrinkTo n => 0 <= n < W
  | _ => True
  end.

Lemma vinv_len sz al s l : vinv sz al s -> 0 <= l <= vcap s -> vinv sz al (mkV l (vcap s)).
Proof. intros [_ Hc] Hl. split; [exact Hl|exact Hc]. Qed.

Section OneState.
Variables (sz al : Z) (s : vstate) (got : Z).
Hypotheses (He : elem_ok sz al) (Hi : vinv sz al s) (Hgot : got_ok sz got).

Lemma vinv_cap_small : vcap s * 2 < W.
Proof. destruct He as [Hs _], Hi as [[H0 Hl] Hc]. assert (vcap s <= vcap s * sz) by nia. unfold IMAX, W in *. lia. Qed.

Lemma reserve_by_spec n nc grant s' o :
  vlen s + n <= nc ->
  reserve_by sz al s n nc grant got = (s', o) ->
  (vo_err o = None /\ vinv sz al s' /\ vlen s' = vlen s /\ n <= vcap s' - vlen s' /\ vcap s <= vcap s' /\
   (n <= vcap s - vlen s -> s' = s /\ vo_asked o = false) /\
   (vcap s - vlen s < n -> vo_asked o = true /\ grant = true /\ vcap s' = Z.max nc got)) \/
  (vo_err o <> None /\ s' = s /\ vcap s - vlen s < n).
Proof.
  intros Hnc. unfold reserve_by. destruct (Z.ltb_spec (vcap s - vlen s) n) as [Hlt|Hge].
  - destruct (W <=? vlen s + n).
    { intros H. injection H as <- <-. right. split; [discriminate|]. split; [reflexivity|exact Hlt]. }
    intros H. destruct (grow_to_spec _ _ _ _ _ _ _ _ H) as [(E1 & -> & E3 & E4 & E5)|(E1 & E2)].
    + left. pose proof (max_bound sz nc got (layout_ok_bound _ _ _ He E5) Hgot) as Hmb.
      destruct Hi as [Hl _]. unfold vinv. cbn [vlen vcap]. repeat split; try assumption; lia.
    + right. split; [exact E1|]. split; [exact E2|exact Hlt].
  - intros H. injection H as <- <-. left. cbn [vo_err vo_asked].
    repeat split; try assumption; try reflexivity; try apply Hi; lia.
Qed.

Lemma reserve_spec n grant s' o :
  reserve sz al s n grant got = (s', o) ->
  (vo_err o = None /\ vinv sz al s' /\ vlen s' = vlen s /\ n <= vcap s' - vlen s' /\ vcap s <= vcap s' /\
   (n <= vcap s - vlen s -> s' = s /\ vo_asked o = false) /\
   (vcap s - vlen s < n -> vo_asked o = true /\ grant = true /\ 2 * vcap s <= vcap s' /\ min_non_zero_cap sz <= vcap s')) \/
  (vo_err o <> None /\ s' = s /\ vcap s - vlen s < n).
Proof.
  intros H. rewrite reserve_by_amortized in H.
  destruct (amortized_cap_bounds sz s n vinv_cap_small) as (B1 & B2 & B3).
  destruct (reserve_by_spec _ _ _ _ _ B1 H) as [(E1 & I & L & R & C & Q & G)|F]; [left|right; exact F].
  repeat (split; [assumption|]). intros Hlt. destruct (G Hlt) as (A & Gr & ->). split; [exact A|]. split; [exact Gr|lia].
Qed.

Lemma reserve_exact_spec n grant s' o :
  reserve_exact sz al s n grant got = (s', o) ->
  (vo_err o = None /\ vinv sz al s' /\ vlen s' = vlen s /\ n <= vcap s' - vlen s' /\ vcap s <= vcap s' /\
   (n <= vcap s - vlen s -> s' = s /\ vo_asked o = false) /\
   (vcap s - vlen s < n -> vo_asked o = true /\ grant = true /\ vcap s' = Z.max (vlen s + n) got)) \/
  (vo_err o <> None /\ s' = s /\ vcap s - vlen s < n).
Proof. apply reserve_by_spec, Z.le_refl. Qed.

(* refused by the overflow check, or by the layout of whatever capacity was chosen *)
Lemma reserve_by_overflow n nc grant :
  IMAX < (vlen s + n) * sz -> vlen s + n <= nc ->
  reserve_by sz al s n nc grant got = (s, mkVO (Some VOverflow) false).
Proof.
  intros Hbig Hnc. destruct He as [Hs Ha], Hi as [Hl Hc]. unfold reserve_by.
  assert (Hm : forall x, vlen s + n <= x -> IMAX < x * sz).
  { intros x Hx. apply Z.lt_le_trans with (1 := Hbig), Z.mul_le_mono_nonneg_r; lia. }
  destruct (Z.ltb_spec (vcap s - vlen s) n) as [_|Hge]; [|exfalso; specialize (Hm (vcap s)); lia].
  destruct (W <=? vlen s + n); [reflexivity|].
  unfold grow_to, layout_ok. replace (nc * sz <=? IMAX - (al - 1)) with false; [rewrite andb_false_r; reflexivity|].
  symmetry. apply Z.leb_gt. specialize (Hm nc Hnc). lia.
Qed.

Lemma vinv_shrink c : vlen s <= c <= vcap s -> vinv sz al (mkV (vlen s) c).
Proof.
  intros Hb. destruct He as [Hs _], Hi as [Hl Hc]. split; cbn [vlen vcap]; [lia|].
  apply Z.le_trans with (vcap s * sz); [apply Z.mul_le_mono_nonneg_r; lia|exact Hc].
Qed.

Lemma reserve_by_inv n nc grant :
  vlen s + n <= nc ->
  let '(s', o) := reserve_by sz al s n nc grant got in vinv sz al s' /\ (vo_err o <> None -> s' = s).
Proof.
  intros Hnc. destruct (reserve_by sz al s n nc grant got) as [s' o] eqn:H.
  destruct (reserve_by_spec _ _ _ _ _ Hnc H) as [(E1 & I1 & _)|(E1 & -> & _)].
  - split; [exact I1|congruence].
  - split; [exact Hi|reflexivity].
Qed.

Lemma extend_inv n grant shrunk :
  0 <= n ->
  let '(s', out) := vstep false sz al s (VExtend n) grant shrunk got in
  vinv sz al s' /\ (vo_err out <> None -> s' = s).
Proof.
  intros Hn. cbn [vstep]. destruct (reserve sz al s n grant got) as [s1 [e a]] eqn:Er.
  destruct (reserve_spec _ _ _ _ Er) as [(E1 & I1 & _ & R1 & _)|(E1 & -> & _)]; cbn [vo_err] in E1.
  - subst e. split; [|cbn; congruence]. apply (vinv_len sz al s1); [exact I1|]. destruct I1. lia.
  - destruct e; [|congruence]. split; [exact Hi|reflexivity].
Qed.

(* the shape VShrinkToFit and VShrinkTo share in vstep *)
Lemma shrink_inv (shrunk : bool) c :
  vlen s <= c ->
  let '(s', out) := (if vcap s <=? c then quiet s
                     else if shrunk then (mkV (vlen s) c, mkVO None true) else (s, mkVO None true)) in
  vinv sz al s' /\ (vo_err out <> None -> s' = s).
Proof.
  intros Hc. destruct (Z.leb_spec (vcap s) c); [split; [exact Hi|cbn; congruence]|].
  destruct shrunk; (split; [|cbn; congruence]); [|exact Hi]. apply vinv_shrink. lia.
Qed.

End OneState.

Theorem fixed_never_reallocates sz al s o grant shrunk got :
  let '(s', out) := vstep true sz al s o grant shrunk got in
  vcap s' = vcap s /\ vo_asked out = false.
Proof.
  destruct o as [n|n| |n| |k| |m]; cbn [vstep orb]; unfold quiet;
    try (destruct (vcap s - vlen s <? _)); cbn; split; reflexivity.
Qed.

Theorem fixed_vstep_spec sz al s o grant shrunk got :
  0 <= vlen s <= vcap s -> vop_ok o ->
  let '(s', out) := vstep true sz al s o grant shrunk got in
  vcap s' = vcap s /\ 0 <= vlen s' <= vcap s /\ (vo_err out <> None -> s' = s) /\ vo_asked out = false /\
  (forall n, (o = VExtend n \/ (o = VPush /\ n = 1)) -> (vo_err out = None <-> vlen s + n <= vcap s)).
Proof.
  intros Hl Ho. pose proof (fixed_never_reallocates sz al s o grant shrunk got) as C.
  set (r := vstep true sz al s o grant shrunk got) in *.
  (* an operation that adds n fails exactly when there is no room for n *)
  assert (B : forall n, o = VExtend n \/ (o = VPush /\ n = 1) -> (vo_err (snd r) = None <-> vlen s + n <= vcap s)).
  { subst r. intros n [->|[-> ->]]; cbn [vstep]; [destruct (Z.ltb_spec (vcap s - vlen s) n)|destruct (Z.ltb_spec (vcap s - vlen s) 1)];
      cbn [snd vo_err];
      split; intros E; discriminate || reflexivity || lia. }
  (* every operation leaves the length within the capacity, and s alone when it fails *)
  assert (A : 0 <= vlen (fst r) <= vcap s /\ (vo_err (snd r) <> None -> fst r = s)).
  { subst r. clear B C. destruct o as [n|n| |n| |k| |m]; cbn [vstep orb vop_ok] in *; unfold quiet;
      try match goal with |- context [?a <? ?b] => destruct (Z.ltb_spec a b) end; cbn [fst snd vlen vcap vo_err];
      (split; [lia|congruence]). }
  destruct r as [s' out], C as [C1 C2], A as [A1 A2].
  split; [exact C1|]. split; [exact A1|]. split; [exact A2|]. split; [exact C2|exact B].
Qed.

(* C07 (collection level): an operation that fails leaves length and capacity as they were.
   C08: capacity >= length always. *)
Theorem vstep_inv fixed sz al s o grant shrunk got :
  elem_ok sz al -> vinv sz al s -> got_ok sz got -> vop_ok o ->
  let '(s', out) := vstep fixed sz al s o grant shrunk got in
  vinv sz al s' /\ (vo_err out <> None -> s' = s).
Proof.
  intros He Hi Hgot Ho. pose proof Hi as (Hl & Hc). destruct fixed.
  { (* a fixed vector keeps its capacity *)
    pose proof (fixed_vstep_spec sz al s o grant shrunk got Hl Ho) as F.
    destruct (vstep true sz al s o grant shrunk got) as [s' out]. destruct F as (Ec & Hl' & Hs & _).
    split; [|exact Hs]. unfold vinv. rewrite Ec. split; assumption. }
  destruct o as [n|n| |n| |k| |m]; cbn [vop_ok] in Ho.
  - (* VReserve *)
    apply (reserve_by_inv sz al s got He Hi Hgot n (amortized_cap sz s n)), amortized_cap_bounds, (vinv_cap_small sz al s He Hi).
  - (* VReserveExact *) apply (reserve_by_inv sz al s got He Hi Hgot n (vlen s + n)), Z.le_refl.
  - (* VPush: an extend by 1 *) apply (extend_inv sz al s got He Hi Hgot 1 grant shrunk). lia.
  - (* VExtend *) apply extend_inv; [exact He|exact Hi|exact Hgot|apply Ho].
  - (* VPop *) split; [apply vinv_len; [exact Hi|lia]|cbn; congruence].
  - (* VTruncate *) split; [apply vinv_len; [exact Hi|lia]|cbn; congruence].
  - (* VShrinkToFit *) apply shrink_inv; [exact He|exact Hi|lia].
  - (* VShrinkTo *) apply (shrink_inv sz al s He Hi shrunk (Z.max (vlen s) m)). lia.
Qed.

Definition step_ok (sz : Z) (x : vop * bool * bool * Z) : Prop := vop_ok (fst (fst (fst x))) /\ got_ok sz (snd x).

Theorem vrun_inv fixed sz al : forall xs s,
  elem_ok sz al -> vinv sz al s -> Forall (step_ok sz) xs -> vinv sz al (vrun fixed sz al s xs).
Proof.
  induction xs as [|[[[o g] sh] got] t IH]; intros s He Hi Hok; [exact Hi|]. cbn [vrun].
  inversion Hok as [|? ? [Ho Hg] Ht]; subst. cbn [fst snd] in Ho, Hg.
  pose proof (vstep_inv fixed sz al s o g sh got He Hi Hg Ho) as H. destruct (vstep fixed sz al s o g sh got) as [s' out].
  cbn [fst]. apply IH; [exact He|exact (proj1 H)|exact Ht].
Qed.

(* C08: reserve / reserve_exact keep their promise; nothing is reallocated while it suffices *)
Theorem reserve_promise sz al s n grant shrunk got (exact : bool) :
  elem_ok sz al -> vinv sz al s -> got_ok sz got -> 0 <= n ->
  let '(s', out) := vstep false sz al s (if exact then VReserveExact n else VReserve n) grant shrunk got in
  vo_err out = None -> n <= vcap s' - vlen s' /\ vlen s' = vlen s /\ vcap s <= vcap s'.
Proof.
  intros He Hi Hgot Hn. destruct exact; cbn [vstep].
  - destruct (reserve_exact sz al s n grant got) as [s1 o1] eqn:Er.
    destruct (reserve_exact_spec _ _ _ _ He Hi Hgot _ _ _ _ Er) as [(E1 & I1 & L & R & C & _)|(E1 & _)]; [intros _; auto|congruence].
  - destruct (reserve sz al s n grant got) as [s1 o1] eqn:Er.
    destruct (reserve_spec _ _ _ _ He Hi Hgot _ _ _ _ Er) as [(E1 & I1 & L & R & C & _)|(E1 & _)]; [intros _; auto|congruence].
Qed.

(* the capacity stays, so the buffer does not move *)
Theorem enough_room_no_allocator_call fixed sz al s o grant shrunk got n :
  elem_ok sz al -> vinv sz al s ->
  (o = VReserve n \/ o = VReserveExact n \/ o = VExtend n \/ (o = VPush /\ n = 1)) -> 0 <= n ->
  n <= vcap s - vlen s ->
  let '(s', out) := vstep fixed sz al s o grant shrunk got in
  vo_err out = None /\ vo_asked out = false /\ vcap s' = vcap s.
Proof.
  intros He Hi Ho Hn Hroom.
  assert (F : (vcap s - vlen s <? n) = false) by (apply Z.ltb_ge; lia).
  destruct Ho as [->|[->|[->|[-> ->]]]]; cbn [vstep]; unfold reserve, reserve_exact; destruct fixed; rewrite F;
    repeat split; reflexivity.
Qed.

(* after a successful reserve(n) the next n pushes find room although the allocator would refuse
   (`grant = false`) *)
Fixpoint pushes (k : nat) : list (vop * bool * bool * Z) :=
  match k with O => [] | S k' => (VPush, false, false, 0) :: pushes k' end.

Theorem promise_window sz al : forall k s,
  elem_ok sz al -> vinv sz al s -> Z.of_nat k <= vcap s - vlen s ->
  let s' := vrun false sz al s (pushes k) in
  vcap s' = vcap s /\ vlen s' = vlen s + Z.of_nat k.
Proof.
  induction k as [|k IH]; intros s He Hi Hk; [cbn; lia|].
  cbn [pushes vrun].
  pose proof (vstep_inv false sz al s VPush false false 0 He Hi (got_ok_0 sz) I) as H2.
  assert (E : fst (vstep false sz al s VPush false false 0) = mkV (vlen s + 1) (vcap s)).
  { cbn [vstep]. unfold reserve. destruct (Z.ltb_spec (vcap s - vlen s) 1); [lia|]. reflexivity. }
  destruct (vstep false sz al s VPush false false 0) as [s1 o1]. cbn [fst] in *. subst s1.
  destruct (IH (mkV (vlen s + 1) (vcap s)) He (proj1 H2)) as [A B]; [cbn [vlen vcap]; lia|].
  cbn [vlen vcap] in *. lia.
Qed.

(* amortised growth *)
Theorem growing_push_doubles sz al s grant shrunk got :
  elem_ok sz al -> vinv sz al s -> got_ok sz got -> vlen s = vcap s ->
  let '(s', out) := vstep false sz al s VPush grant shrunk got in
  vo_err out = None -> 2 * vcap s <= vcap s' /\ min_non_zero_cap sz <= vcap s' /\ vlen s' = vlen s + 1.
Proof.
  intros He Hi Hgot Hfull. cbn [vstep]. destruct (reserve sz al s 1 grant got) as [s1 o1] eqn:Er.
  destruct (reserve_spec _ _ _ _ He Hi Hgot _ _ _ _ Er) as [(E1 & I1 & L & R & C & _ & G)|(E1 & E2 & _)].
  - destruct o1 as [e a]. cbn [vo_err] in E1. subst e. intros _. destruct (G ltac:(lia)) as (_ & _ & G1 & G2).
    cbn [vlen vcap]. lia.
  - destruct o1 as [[e|] a]; [cbn; congruence|cbn in E1; congruence].
Qed.

(* got = 0: BumpVec *)
Theorem reserve_exact_is_exact sz al s n grant shrunk :
  elem_ok sz al -> vinv sz al s -> 0 <= n -> vcap s - vlen s < n ->
  let '(s', out) := vstep false sz al s (VReserveExact n) grant shrunk 0 in
  vo_err out = None -> vcap s' = vlen s + n.
Proof.
  intros He Hi Hn Hlt. cbn [vstep]. destruct (reserve_exact sz al s n grant 0) as [s1 o1] eqn:Er.
  destruct (reserve_exact_spec _ _ _ _ He Hi (got_ok_0 sz) _ _ _ _ Er) as [(E1 & I1 & L & R & C & _ & G)|(E1 & _)]; [|congruence].
  intros _. destruct (G Hlt) as (_ & _ & E). destruct Hi as (Hl & _). lia.
Qed.

Theorem fixed_push_fails_iff_full sz al s grant shrunk got :
  vinv sz al s ->
  (vo_err (snd (vstep true sz al s VPush grant shrunk got)) <> None <-> vlen s = vcap s).
Proof.
  intros (Hl & _). cbn [vstep]. destruct (Z.ltb_spec (vcap s - vlen s) 1) as [Hlt|Hge]; cbn; split; intros Hx; try lia; try congruence.
Qed.

Theorem shrink_to_bounds sz al s m grant shrunk got :
  vinv sz al s ->
  let s' := fst (vstep false sz al s (VShrinkTo m) grant shrunk got) in
  vlen s' = vlen s /\ vlen s <= vcap s' <= vcap s /\ Z.min (vcap s) m <= vcap s'.
Proof.
  intros (Hl & _). cbn [vstep orb]. destruct (Z.leb_spec (vcap s) (Z.max (vlen s) m)); [cbn; lia|].
  destruct shrunk; cbn [fst vlen vcap]; lia.
Qed.

Theorem with_capacity_spec sz al c grant got :
  elem_ok sz al -> got_ok sz got -> 0 <= c ->
  let '(s, out) := with_capacity sz al c grant got in
  (vo_err out = None -> vinv sz al s /\ vlen s = 0 /\ c <= vcap s /\ (got = 0 -> vcap s = c)) /\ (vo_err out <> None -> s = mkV 0 0).
Proof.
  intros He Hgot Hc. unfold with_capacity. destruct (Z.eqb_spec c 0) as [->|Hne].
  - unfold quiet, vinv, IMAX. cbn [vlen vcap vo_err]. split; [lia|congruence].
  - destruct (grow_to sz al (mkV 0 0) c grant got) as [s o] eqn:Eg.
    destruct (grow_to_spec _ _ _ _ _ _ _ _ Eg) as [(E1 & E2 & _ & _ & E5)|(E1 & E2)].
    + subst s. split; [intros _|congruence]. unfold vinv. cbn [vlen vcap].
      split; [split; [lia|apply max_bound; [exact (layout_ok_bound _ _ _ He E5)|exact Hgot]]|].
      split; [reflexivity|]. split; [apply Z.le_max_l|intros ->; apply Z.max_l, Hc].
    + split; [congruence|intros _; exact E2].
Qed.

(* C07: a request whose size overflows is an error, decided without asking the allocator, and the
   vector is unchanged *)
Theorem overflow_is_error_without_call sz al s n grant shrunk got (exact : bool) :
  elem_ok sz al -> vinv sz al s -> 0 <= n -> IMAX < (vlen s + n) * sz ->
  let '(s', out) := vstep false sz al s (if exact then VReserveExact n else VReserve n) grant shrunk got in
  vo_err out = Some VOverflow /\ vo_asked out = false /\ s' = s.
Proof.
  intros He Hi Hn Hbig.
  destruct exact; cbn [vstep]; [rewrite reserve_exact_by_required|rewrite reserve_by_amortized];
    rewrite (reserve_by_overflow sz al s got He Hi n _ grant Hbig); repeat split;
    try apply Z.le_refl; apply amortized_cap_bounds, (vinv_cap_small sz al s He Hi).
Qed.

(* zero-sized element types: the vector reports capacity usize::MAX and behaves like a fixed vector
   of that capacity *)
Theorem zst_vector_never_overflows al s o grant shrunk got :
  vcap s = W - 1 -> 0 <= vlen s <= vcap s -> vop_ok o ->
  let '(s', out) := vstep true 0 al s o grant shrunk got in
  vcap s' = W - 1 /\ 0 <= vlen s' <= W - 1 /\ (vo_err out <> None -> s' = s) /\ vo_asked out = false /\
  (forall n, (o = VExtend n \/ (o = VPush /\ n = 1)) -> (vo_err out = None <-> vlen s + n <= W - 1)).
Proof. intros Hc. rewrite <- Hc. apply fixed_vstep_spec. Qed.

Example a_history :
  vrun false 4 4 (mkV 0 0) [(VPush, true, false, 0); (VReserve 10, true, false, 0); (VExtend 10, false, false, 0); (VPush, false, false, 0);
                            (VShrinkToFit, false, true, 0)] = mkV 11 11 /\
  vrun false 4 4 (mkV 0 0) [(VPush, true, false, 120); (VExtend 119, false, false, 0); (VPush, true, false, 500)] = mkV 121 500 /\
  vinv 4 4 (mkV 0 0) /\ elem_ok 4 4.
Proof. split; [vm_compute; reflexivity|]. split; [vm_compute; reflexivity|]. unfold vinv, elem_ok, IMAX. cbn [vlen vcap]. lia. Qed.
