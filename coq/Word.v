(* Word.v — 64-bit machine arithmetic on Z, the control monad used by generated code,
   alignment functions and their algebra.  Standard library only. *)
From Coq Require Import ZArith Lia Bool.
Open Scope Z_scope.

Definition W : Z := 2 ^ 64.
Definition IMAX : Z := 2 ^ 63 - 1.          (* isize::MAX *)

(* ------------------------------------------------------------------ *)
(* Control monad of generated code: normal value, early return, trap.  *)
(* Trap = arithmetic overflow / underflow (a panic in a debug build,    *)
(* silent wrap-around in a release build) or division by zero (a panic *)
(* in both).                                                           *)
Inductive ctl (R A : Type) : Type :=
| Norm (a : A)
| Ret (r : R)
| Trap.
Arguments Norm {R A} a.
Arguments Ret {R A} r.
Arguments Trap {R A}.

Definition bindc {R A B} (m : ctl R A) (f : A -> ctl R B) : ctl R B :=
  match m with
  | Norm a => f a
  | Ret r => Ret r
  | Trap => Trap
  end.

Inductive res (A : Type) : Type := Ok (a : A) | Ovf.
Arguments Ok {A} a.
Arguments Ovf {A}.

Definition run {R} (m : ctl R R) : res R :=
  match m with Norm r => Ok r | Ret r => Ok r | Trap => Ovf end.

(* calling another generated function from inside a body *)
Definition call {R A} (r : res A) : ctl R A :=
  match r with Ok a => Norm a | Ovf => Trap end.

(* `e?` / attempt!(e) in a function returning Option *)
Definition try_opt {R A} (o : option A) : ctl (option R) A :=
  match o with Some a => Norm a | None => Ret None end.

Declare Scope ctl_scope.
Delimit Scope ctl_scope with ctl.
Notation "x <- e ;; k" := (bindc e (fun x => k))
  (at level 61, e at next level, right associativity) : ctl_scope.
Notation "' p <- e ;; k" := (bindc e (fun p => k))
  (at level 61, p pattern, e at next level, right associativity) : ctl_scope.

Definition in_u64 (x : Z) : bool := (0 <=? x) && (x <? W).

Definition add {R} (x y : Z) : ctl R Z := if x + y <? W then Norm (x + y) else Trap.
Definition sub {R} (x y : Z) : ctl R Z := if 0 <=? x - y then Norm (x - y) else Trap.
Definition mul {R} (x y : Z) : ctl R Z := if x * y <? W then Norm (x * y) else Trap.
Definition rem {R} (x y : Z) : ctl R Z := if y =? 0 then Trap else Norm (x mod y).
Definition divu {R} (x y : Z) : ctl R Z := if y =? 0 then Trap else Norm (x / y).

Definition sat_add (x y : Z) : Z := Z.min (x + y) (W - 1).
Definition sat_sub (x y : Z) : Z := Z.max (x - y) 0.
Definition wrapping_sub (x y : Z) : Z := (x - y) mod W.
Definition wrapping_add (x y : Z) : Z := (x + y) mod W.
Definition as_isize (x : Z) : Z := if x <? 2 ^ 63 then x else x - W.
Definition checked_add (x y : Z) : option Z := if x + y <? W then Some (x + y) else None.
Definition checked_sub (x y : Z) : option Z := if 0 <=? x - y then Some (x - y) else None.
Definition checked_mul (x y : Z) : option Z := if x * y <? W then Some (x * y) else None.
Definition not64 (x : Z) : Z := W - 1 - x.
Definition and64 (x y : Z) : Z := Z.land x y.
Definition is_pow2 (x : Z) : bool := (0 <? x) && (Z.land x (x - 1) =? 0).
Definition checked_next_pow2 (x : Z) : option Z :=
  let p := if x <=? 1 then 1 else 2 ^ Z.log2_up x in
  if p <? W then Some p else None.
Definition nonzero_new (x : Z) : option Z := if x =? 0 then None else Some x.

(* core::alloc::Layout *)
Record Layout := mkLayout { lsize : Z; lalign : Z }.

Definition down_alignZ (x a : Z) : Z := x - x mod a.
Definition up_alignZ (x a : Z) : Z := down_alignZ (x + a - 1) a.

Definition pow2 (a : Z) : Prop := exists k, 0 <= k /\ a = 2 ^ k.
Definition pow2b (a : Z) : bool := (0 <? a) && (a =? 2 ^ Z.log2 a).

Lemma pow2b_spec a : pow2b a = true <-> pow2 a.
Proof.
  unfold pow2b, pow2. rewrite andb_true_iff, Z.ltb_lt, Z.eqb_eq. split.
  - intros [Hp He]. exists (Z.log2 a). split; [apply Z.log2_nonneg | exact He].
  - intros [k [Hk ->]]. split; [apply Z.pow_pos_nonneg; lia|].
    rewrite Z.log2_pow2 by lia. reflexivity.
Qed.

Lemma pow2_pos a : pow2 a -> 0 < a.
Proof. intros [k [Hk ->]]. apply Z.pow_pos_nonneg; lia. Qed.

Lemma pow2_divide a b : pow2 a -> pow2 b -> a <= b -> (a | b).
Proof.
  intros [j [Hj ->]] [k [Hk ->]] Hle.
  assert (j <= k) by (apply (Z.pow_le_mono_r_iff 2); lia).
  exists (2 ^ (k - j)). rewrite <- Z.pow_add_r by lia. f_equal; lia.
Qed.

Lemma pow2_le_or a b : pow2 a -> pow2 b -> (a | b) \/ (b | a).
Proof.
  intros Ha Hb. destruct (Z_le_gt_dec a b).
  - left; apply pow2_divide; assumption.
  - right; apply pow2_divide; try assumption; lia.
Qed.

Lemma pow2_max a b : pow2 a -> pow2 b -> pow2 (Z.max a b).
Proof. intros Ha Hb. destruct (Z.max_spec a b) as [[_ ->]|[_ ->]]; assumption. Qed.

Lemma pow2_16 : pow2 16. Proof. exists 4; split; [lia|reflexivity]. Qed.
Lemma pow2_1 : pow2 1. Proof. exists 0; split; [lia|reflexivity]. Qed.
Lemma pow2_8 : pow2 8. Proof. exists 3; split; [lia|reflexivity]. Qed.
Lemma pow2_4096 : pow2 4096. Proof. exists 12; split; [lia|reflexivity]. Qed.

Lemma mod_divide_iff x a : 0 < a -> (x mod a = 0 <-> (a | x)).
Proof. intros Ha. apply Z.mod_divide; lia. Qed.

Lemma down_align_le x a : 0 < a -> down_alignZ x a <= x.
Proof. intros Ha. unfold down_alignZ. pose proof (Z.mod_pos_bound x a Ha). lia. Qed.

Lemma down_align_gt x a : 0 < a -> x - a < down_alignZ x a.
Proof. intros Ha. unfold down_alignZ. pose proof (Z.mod_pos_bound x a Ha). lia. Qed.

Lemma down_align_div x a : 0 < a -> (a | down_alignZ x a).
Proof.
  intros Ha. unfold down_alignZ. exists (x / a).
  pose proof (Z.div_mod x a ltac:(lia)). lia.
Qed.

Lemma down_align_id x a : 0 < a -> (a | x) -> down_alignZ x a = x.
Proof.
  intros Ha Hd. unfold down_alignZ. apply Z.mod_divide in Hd; [|lia]. lia.
Qed.

Lemma down_align_max x y a : 0 < a -> (a | y) -> y <= x -> y <= down_alignZ x a.
Proof.
  intros Ha [q ->] Hle. unfold down_alignZ.
  pose proof (Z.div_mod x a ltac:(lia)) as E.
  pose proof (Z.mod_pos_bound x a Ha) as B.
  assert (q <= x / a) by (apply Z.div_le_lower_bound; lia).
  nia.
Qed.

Lemma down_align_mono x y a : 0 < a -> x <= y -> down_alignZ x a <= down_alignZ y a.
Proof.
  intros Ha Hle. apply down_align_max; [assumption|apply down_align_div; assumption|].
  pose proof (down_align_le x a Ha). lia.
Qed.

Lemma up_align_ge x a : 0 < a -> x <= up_alignZ x a.
Proof. intros Ha. unfold up_alignZ. pose proof (down_align_gt (x + a - 1) a Ha). lia. Qed.

Lemma up_align_lt x a : 0 < a -> up_alignZ x a < x + a.
Proof. intros Ha. unfold up_alignZ. pose proof (down_align_le (x + a - 1) a Ha). lia. Qed.

Lemma up_align_div x a : 0 < a -> (a | up_alignZ x a).
Proof. intros Ha. apply down_align_div; assumption. Qed.

Lemma up_align_id x a : 0 < a -> (a | x) -> up_alignZ x a = x.
Proof.
  intros Ha [q ->]. unfold up_alignZ, down_alignZ.
  replace (q * a + a - 1) with ((a - 1) + q * a) by lia.
  rewrite Z.mod_add by lia. rewrite Z.mod_small by lia. lia.
Qed.

Lemma up_align_min x y a : 0 < a -> (a | y) -> x <= y -> up_alignZ x a <= y.
Proof.
  intros Ha [q ->] Hle. unfold up_alignZ.
  pose proof (down_align_div (x + a - 1) a Ha) as [p Hp].
  pose proof (down_align_le (x + a - 1) a Ha).
  rewrite Hp in *. assert (p < q + 1) by nia. nia.
Qed.

Lemma up_align_mono x y a : 0 < a -> x <= y -> up_alignZ x a <= up_alignZ y a.
Proof.
  intros Ha Hle. apply up_align_min; [assumption|apply up_align_div; assumption|].
  pose proof (up_align_ge y a Ha). lia.
Qed.

Lemma up_align_via_down x a : 0 < a -> up_alignZ x a = down_alignZ (x - 1) a + a.
Proof.
  intros Ha. unfold up_alignZ, down_alignZ.
  replace (x + a - 1) with ((x - 1) + 1 * a) by lia.
  rewrite Z.mod_add by lia. lia.
Qed.

Lemma divide_trans_align a b x : (a | b) -> (b | x) -> (a | x).
Proof. apply Z.divide_trans. Qed.

Lemma down_align_add x a k : 0 < a -> (a | k) -> down_alignZ (x + k) a = down_alignZ x a + k.
Proof.
  intros Ha [q ->]. unfold down_alignZ. rewrite Z.mod_add by lia. lia.
Qed.

Lemma up_align_add x a k : 0 < a -> (a | k) -> up_alignZ (x + k) a = up_alignZ x a + k.
Proof.
  intros Ha Hk. unfold up_alignZ.
  replace (x + k + a - 1) with (x + a - 1 + k) by lia.
  apply down_align_add; assumption.
Qed.

Lemma W_div a : pow2 a -> a < W -> (a | W).
Proof. intros Ha Hlt. apply pow2_divide; [assumption|exists 64; split; [lia|reflexivity]|lia]. Qed.

(* an alignment that would overflow the checked addition lands at or beyond 2^64 *)
Lemma up_align_overflow x a : pow2 a -> a < W -> W <= x + a - 1 -> W <= up_alignZ x a.
Proof.
  intros Ha HaW Hov. pose proof (pow2_pos _ Ha). unfold up_alignZ.
  apply down_align_max; [assumption|apply W_div; assumption|assumption].
Qed.

(* two multiples of a that differ are at least a apart *)
Lemma divide_lt_step a x y : 0 < a -> (a | x) -> (a | y) -> x < y -> x + a <= y.
Proof.
  intros Ha [k ->] [j ->] H. apply Z.mul_lt_mono_pos_r in H; [|assumption].
  replace (k * a + a) with ((k + 1) * a) by lia. apply Z.mul_le_mono_nonneg_r; lia.
Qed.

(* aligned values of a coarser alignment are aligned for a finer one *)
Lemma down_align_div_finer x a b : 0 < a -> (b | a) -> (b | down_alignZ x a).
Proof. intros Ha Hb. eapply Z.divide_trans; [exact Hb | apply down_align_div; assumption]. Qed.

Lemma up_align_div_finer x a b : 0 < a -> (b | a) -> (b | up_alignZ x a).
Proof. intros Ha Hb. eapply Z.divide_trans; [exact Hb | apply up_align_div; assumption]. Qed.

(* a value already aligned for a coarser power of two is left alone by a finer alignment,
   and a finer alignment cannot move past a coarser aligned bound *)
Lemma up_align_fixed x a b : pow2 a -> pow2 b -> a <= b -> (b | x) -> up_alignZ x a = x.
Proof.
  intros Ha Hb Hle Hd. apply up_align_id; [apply pow2_pos; assumption|].
  eapply Z.divide_trans; [apply pow2_divide; eassumption|assumption].
Qed.

Lemma down_align_fixed x a b : pow2 a -> pow2 b -> a <= b -> (b | x) -> down_alignZ x a = x.
Proof.
  intros Ha Hb Hle Hd. apply down_align_id; [apply pow2_pos; assumption|].
  eapply Z.divide_trans; [apply pow2_divide; eassumption|assumption].
Qed.

Lemma up_align_le_bound x y a b :
  pow2 a -> pow2 b -> a <= b -> (b | y) -> x <= y -> up_alignZ x a <= y.
Proof.
  intros Ha Hb Hle Hd Hxy. apply up_align_min; [apply pow2_pos; assumption| |assumption].
  eapply Z.divide_trans; [apply pow2_divide; eassumption|assumption].
Qed.

Lemma down_align_ge_bound x y a b :
  pow2 a -> pow2 b -> a <= b -> (b | y) -> y <= x -> y <= down_alignZ x a.
Proof.
  intros Ha Hb Hle Hd Hxy. apply down_align_max; [apply pow2_pos; assumption| |assumption].
  eapply Z.divide_trans; [apply pow2_divide; eassumption|assumption].
Qed.

Lemma W_val : W = 18446744073709551616. Proof. reflexivity. Qed.
Lemma IMAX_val : IMAX = 9223372036854775807. Proof. reflexivity. Qed.

(* the bit-level forms the source uses, as alignment on Z *)
Lemma land_not64 x m : 0 <= x < W -> 0 <= m < W -> Z.land x (not64 m) = Z.ldiff x m.
Proof.
  intros Hx Hm. unfold not64.
  replace (W - 1 - m) with (Z.land (Z.lnot m) (Z.ones 64)).
  - rewrite Z.land_assoc, (Z.land_comm x), <- Z.land_assoc.
    rewrite (Z.land_ones x 64) by lia. change (2 ^ 64) with W.
    rewrite Z.mod_small by lia. rewrite Z.land_comm. symmetry. apply Z.ldiff_land.
  - rewrite Z.land_ones by lia. change (2 ^ 64) with W.
    unfold Z.lnot. replace (Z.pred (- m)) with ((W - 1 - m) + (-1) * W) by lia.
    rewrite Z.mod_add by (unfold W; lia). apply Z.mod_small. lia.
Qed.

Lemma ldiff_pow2_mask x k : 0 <= k -> Z.ldiff x (2 ^ k - 1) = down_alignZ x (2 ^ k).
Proof.
  intros Hk. replace (2 ^ k - 1) with (Z.ones k) by (rewrite Z.ones_equiv; lia).
  rewrite Z.ldiff_ones_r by lia. rewrite Z.shiftr_div_pow2, Z.shiftl_mul_pow2 by lia.
  unfold down_alignZ. pose proof (Z.div_mod x (2 ^ k)).
  assert (0 < 2 ^ k) by (apply Z.pow_pos_nonneg; lia). lia.
Qed.

Lemma and_not_mask x a :
  pow2 a -> a <= W -> 0 <= x < W -> and64 x (not64 (a - 1)) = down_alignZ x a.
Proof.
  intros Ha HaW Hx. pose proof (pow2_pos a Ha). unfold and64.
  rewrite land_not64 by lia. destruct Ha as [k [Hk ->]]. apply ldiff_pow2_mask; assumption.
Qed.

Lemma add_ok {R} x y : x + y < W -> @add R x y = Norm (x + y).
Proof. intros H. unfold add. destruct (Z.ltb_spec (x + y) W); [reflexivity|lia]. Qed.
Lemma sub_ok {R} x y : y <= x -> @sub R x y = Norm (x - y).
Proof. intros H. unfold sub. destruct (Z.leb_spec 0 (x - y)); [reflexivity|lia]. Qed.
Lemma mul_ok {R} x y : x * y < W -> @mul R x y = Norm (x * y).
Proof. intros H. unfold mul. destruct (Z.ltb_spec (x * y) W); [reflexivity|lia]. Qed.
Lemma rem_ok {R} x y : y <> 0 -> @rem R x y = Norm (x mod y).
Proof. intros H. unfold rem. destruct (Z.eqb_spec y 0); [lia|reflexivity]. Qed.

Lemma sat_add_small x y : x + y < W -> sat_add x y = x + y.
Proof. unfold sat_add. lia. Qed.
Lemma sat_add_big x y : W - 1 <= x + y -> sat_add x y = W - 1.
Proof. unfold sat_add. lia. Qed.
Lemma sat_sub_ge x y : y <= x -> sat_sub x y = x - y.
Proof. unfold sat_sub. lia. Qed.
Lemma sat_sub_lt x y : x <= y -> sat_sub x y = 0.
Proof. unfold sat_sub. lia. Qed.

Lemma as_isize_wsub_ge x y : 0 <= y <= x -> x - y < 2 ^ 63 -> x < W ->
  as_isize (wrapping_sub x y) = x - y.
Proof.
  intros H1 H2 H3. unfold as_isize, wrapping_sub. rewrite Z.mod_small by lia.
  destruct (Z.ltb_spec (x - y) (2 ^ 63)); lia.
Qed.

Lemma as_isize_wsub_lt x y : 0 <= x < y -> y - x <= 2 ^ 63 ->
  as_isize (wrapping_sub x y) = x - y.
Proof.
  intros H1 H2. unfold as_isize, wrapping_sub.
  assert (E : (x - y) mod W = x - y + W).
  { symmetry. apply Z.mod_unique_pos with (q := -1); unfold W in *; lia. }
  rewrite E. destruct (Z.ltb_spec (x - y + W) (2 ^ 63)); unfold W in *; lia.
Qed.

Lemma as_isize_small x : 0 <= x < 2 ^ 63 -> as_isize x = x.
Proof. intros H. unfold as_isize. destruct (Z.ltb_spec x (2 ^ 63)); lia. Qed.

(* ------------------------------------------------------------------ *)
(* Running translated code.  [sx1] does one step on the computation at the head of a goal
   [run body = _], in evaluation order: a checked operation is discharged by lia on the facts in
   context (it must succeed: an overflow is a broken refinement, not a case), a call to a translated
   helper is handed to [calls], and the condition of an [if] or the scrutinee of a [match] is first
   brought to plain Z arithmetic and then split, the branch arithmetic refutes being closed at once.
   The scripts built on it never mention bound-variable names or branch positions of the translated
   term, so that a harmless rewrite of the source re-proves.  lia is called once per operation:
   keep the context to the linear facts it needs.  [repeat sx1] stops at [run (Norm v)] or
   [run (Ret r)]: [sx_done] then shows the result, bringing what is left of machine arithmetic in
   it to plain Z, and [sx_cmps] splits the comparisons left in the goal (a specification that is
   still an [if]). *)
Ltac sx_head m := lazymatch m with bindc ?m' _ => sx_head m' | _ => constr:(m) end.
Ltac sx_atom c :=
  lazymatch c with
  | andb ?a _ => sx_atom a
  | orb ?a _ => sx_atom a
  | negb ?a => sx_atom a
  | _ => constr:(c)
  end.
(* side conditions of the rewriting lemmas: given as a hypothesis, or arithmetic *)
Ltac sx_side := first [ assumption | lia ].
Ltac sx_pure t :=
  match t with
  | context [and64 ?x (not64 (?a - 1))] => rewrite (and_not_mask x a) by sx_side
  | context [as_isize (wrapping_sub ?x ?y)] =>
      first [ rewrite (as_isize_wsub_ge x y) by lia | rewrite (as_isize_wsub_lt x y) by lia ]
  | context [as_isize ?x] => rewrite (as_isize_small x) by lia
  | context [checked_add _ _] => unfold checked_add
  | context [checked_sub _ _] => unfold checked_sub
  | context [checked_mul _ _] => unfold checked_mul
  | context [sat_sub ?x ?y] =>
      first [ rewrite (sat_sub_ge x y) by lia | rewrite (sat_sub_lt x y) by lia | unfold sat_sub ]
  | context [sat_add ?x ?y] =>
      first [ rewrite (sat_add_small x y) by lia | rewrite (sat_add_big x y) by lia | unfold sat_add ]
  end.
Ltac sx_split a :=
  lazymatch a with
  | ?x <=? ?y => destruct (Z.leb_spec x y); try (exfalso; lia)
  | ?x <? ?y => destruct (Z.ltb_spec x y); try (exfalso; lia)
  | ?x =? ?y => destruct (Z.eqb_spec x y); try (exfalso; lia)
  | _ => destruct a eqn:?
  end.
Ltac sx_cond c := let a := sx_atom c in first [ sx_pure a | sx_split a ].
Ltac sx_scrut o :=
  lazymatch o with
  | if ?c then _ else _ => sx_cond c
  | _ => first [ sx_pure o | destruct o eqn:? ]
  end.
Ltac sx1 calls :=
  lazymatch goal with
  | |- run ?body = _ =>
    let h := sx_head body in
    lazymatch h with
    | add ?x ?y => rewrite (add_ok x y) by lia
    | sub ?x ?y => rewrite (sub_ok x y) by lia
    | mul ?x ?y => rewrite (mul_ok x y) by lia
    | rem ?x ?y => rewrite (rem_ok x y) by lia
    | call ?r => first [ sx_pure r | calls r ]
    | if ?c then _ else _ => sx_cond c
    | match ?o with Some _ => _ | None => _ end => sx_scrut o
    | try_opt ?o => sx_scrut o
    | Norm _ => progress cbn [bindc]
    | Ret _ => progress cbn [bindc]
    end
  end; cbn [bindc call try_opt andb orb negb lsize lalign].

Ltac sx_done := cbn [run]; repeat lazymatch goal with |- ?g => sx_pure g end.
Ltac sx_cmps :=
  repeat match goal with
         | |- context [?x <=? ?y] => sx_split (x <=? y)
         | |- context [?x <? ?y] => sx_split (x <? y)
         | |- context [?x =? ?y] => sx_split (x =? y)
         end; cbn [andb orb negb].
(* [calls r] must rewrite [call r] with a lemma [r = Ok _], or fail ([r] reaches it after [sx_pure]
   has normalised its arguments); for code that calls no translated helper: *)
Ltac sx_nocalls r := fail.

(* a goal [f args = _] about one translated function: unfold it and run it *)
Ltac sx_fn t := lazymatch t with ?f _ => sx_fn f | _ => t end.
Ltac sx_site calls := lazymatch goal with |- ?l = _ => let f := sx_fn l in unfold f end; repeat sx1 calls.

(* Joining the paths of a block: to run [m] and then [K] it is enough to run [K] once, from any
   value satisfying [P], and to run [m] against an unknown continuation that is only known to be
   right on such values.  Without this every path through [m] runs [K] again. *)
Lemma run_bind_join {R A} (m : ctl R A) (K : A -> ctl R R) (P : A -> Prop) rhs :
  (forall v, P v -> run (K v) = rhs) ->
  (forall k : A -> ctl R R, (forall v, P v -> run (k v) = rhs) -> run (bindc m k) = rhs) ->
  run (bindc m K) = rhs.
Proof. intros HK Hm. apply Hm, HK. Qed.
