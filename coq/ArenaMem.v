(* ArenaMem.v — C02: which bytes an allocation, a fill and the operations that never write may
   change (reallocation: ArenaMem2.v), and the refutation of that property for the WithoutShrink
   defect (Module Refuted).  Memory is a total function; equalities are stated pointwise (no
   extensionality). *)
From Coq Require Import ZArith List Bool Lia.
From BS Require Import Word Arena ArenaInv.
Import ListNotations.
Open Scope Z_scope.

Lemma grow_arena_mem c s size align r : mem (fst (grow_arena c s size align r)) = mem s.
Proof. eapply grow_arena_shape, surjective_pairing. Qed.

Lemma raw_alloc_mem c s size align r : mem (fst (raw_alloc c s size align r)) = mem s.
Proof. apply raw_alloc_frame. Qed.

Lemma dealloc_assume_last_mem c s p sz : mem (dealloc_assume_last c s p sz) = mem s.
Proof. unfold dealloc_assume_last. destruct (negb (deallocates c)); [reflexivity|]. destruct (up c); apply set_cur_pos_mem. Qed.

Lemma raw_dealloc_mem c s p sz : mem (raw_dealloc c s p sz) = mem s.
Proof.
  unfold raw_dealloc. destruct (negb (deallocates c)); [reflexivity|].
  destruct (is_last c s p sz); [apply dealloc_assume_last_mem|reflexivity].
Qed.

Lemma do_reset_to_mem c s cp : mem (do_reset_to c s cp) = mem s.
Proof.
  unfold do_reset_to. destruct (cp_state cp) as [j| |]; try reflexivity.
  - destruct (nth_error (chunks s) j); reflexivity.
  - destruct (cur s); try reflexivity. destruct (chunks s); reflexivity.
Qed.

(* the boolean test of mem_copy, mem_fill and ArenaMem2.moved *)
Lemma range_test lo len a :
  if (lo <=? a) && (a <? lo + len) then lo <= a < lo + len else ~ (lo <= a < lo + len).
Proof. destruct (Z.leb_spec lo a); destruct (Z.ltb_spec a (lo + len)); cbn; lia. Qed.

Lemma mem_copy_outside m src dst len a : ~ (dst <= a < dst + len) -> mem_copy m src dst len a = m a.
Proof. intros H. unfold mem_copy. pose proof (range_test dst len a) as T. destruct (_ && _); [contradiction|reflexivity]. Qed.

Lemma mem_copy_inside m src dst len a : dst <= a < dst + len -> mem_copy m src dst len a = m (src + (a - dst)).
Proof. intros H. unfold mem_copy. pose proof (range_test dst len a) as T. destruct (_ && _); [reflexivity|contradiction]. Qed.

Lemma mem_fill_outside m start len f a : ~ (start <= a < start + len) -> mem_fill m start len f a = m a.
Proof. intros H. unfold mem_fill. pose proof (range_test start len a) as T. destruct (_ && _); [contradiction|reflexivity]. Qed.

Lemma mem_fill_inside m start len f a : start <= a < start + len -> mem_fill m start len f a = f (a - start).
Proof. intros H. unfold mem_fill. pose proof (range_test start len a) as T. destruct (_ && _); [reflexivity|contradiction]. Qed.

Lemma mem_fill_changed m start len f a : mem_fill m start len f a <> m a -> start <= a < start + len.
Proof. intros H. unfold mem_fill in H. pose proof (range_test start len a) as T. destruct (_ && _); [exact T|congruence]. Qed.

Lemma mem_copy_changed m src dst len a : mem_copy m src dst len a <> m a -> dst <= a < dst + len.
Proof. intros H. unfold mem_copy in H. pose proof (range_test dst len a) as T. destruct (_ && _); [exact T|congruence]. Qed.

Theorem alloc_frame c s h ws size align zeroed r a :
  let '(s', out) := step c s (OAlloc h ws size align zeroed) r in
  mem s' a <> mem s a ->
  zeroed = true /\ exists id p, o_res out = RBlock id p size /\ p <= a < p + size.
Proof.
  cbn [step]. set (s1 := tick s). destruct (negb (is_top s1 h)); [cbn; congruence|].
  pose proof (raw_alloc_mem c s1 size align r) as Hm.
  destruct (raw_alloc c s1 size align r) as [s2 [p|e]]; cbn [fst] in Hm.
  - destruct zeroed.
    + unfold add_block. cbn [mem bump_id upd_live zero_fill upd_mem o_res].
      intros Hne. split; [reflexivity|]. exists (nextid (zero_fill s2 p size)), p. split; [reflexivity|].
      apply (mem_fill_changed (mem s2) p size (fun _ => 0)). intros E. apply Hne. rewrite E, Hm. reflexivity.
    + unfold add_block. cbn [mem bump_id upd_live]. rewrite Hm. cbn. congruence.
  - cbn [mem]. rewrite Hm. cbn. congruence.
Qed.

Theorem alloc_zeroed_reads_zero c s h ws size align r :
  let '(s', out) := step c s (OAlloc h ws size align true) r in
  forall id p sz, o_res out = RBlock id p sz -> forall a, p <= a < p + sz -> mem s' a = 0.
Proof.
  cbn [step]. set (s1 := tick s). destruct (negb (is_top s1 h)); [cbn; discriminate|].
  destruct (raw_alloc c s1 size align r) as [s2 [p|e]]; [|cbn; discriminate].
  unfold add_block. cbn [mem bump_id upd_live zero_fill upd_mem o_res].
  intros id p0 sz E a Ha. injection E as _ <- <-. rewrite mem_fill_inside by lia. reflexivity.
Qed.

Theorem fill_frame c s b seed r a :
  mem (fst (step c s (OFill b seed) r)) a <> mem s a ->
  exists blk, find_block (tick s) b = Some blk /\ bptr blk <= a < bptr blk + bsize blk.
Proof.
  cbn [step]. destruct (find_block (tick s) b) as [blk|]; cbn [fst mem upd_mem]; [|cbn; congruence].
  intros Hne. exists blk. split; [reflexivity|]. exact (mem_fill_changed _ _ _ _ _ Hne).
Qed.

Theorem no_write_ops c s o r a :
  match o with
  | ODealloc _ _ _ | OCheckpoint _ | OResetTo _ _ | OReset | OResetToStart | OReserve _ _
  | OClaim _ | OUnclaim | ODrop => mem (fst (step c s o r)) a = mem s a
  | _ => True
  end.
Proof.
  destruct o; try exact I; cbn [step].
  - destruct (find_block (tick s) b); [|reflexivity].
    destruct (negb (is_top (tick s) h) || has_wrapper WDealloc ws); [reflexivity|].
    cbn [fst]. rewrite raw_dealloc_mem. reflexivity.
  - reflexivity.
  - cbn [fst]. rewrite do_reset_to_mem. reflexivity.
  - cbn [cur upd_live]. destruct (cur (tick s)); try reflexivity. cbn [chunks upd_live].
    destruct (rev (chunks (tick s))); [reflexivity|]. cbn [fst mem upd_cur upd_chunks].
    destruct (log_events_fields (upd_live (tick s) []) (reset_events c (upd_live (tick s) []))) as (_ & _ & _ & _ & _ & _ & Hm & _).
    rewrite Hm. reflexivity.
  - cbn [cur upd_live]. destruct (cur (tick s)); try reflexivity. cbn [chunks upd_live].
    destruct (chunks (tick s)); reflexivity.
  - destruct (negb (is_top (tick s) h)); [reflexivity|]. destruct (cur (tick s)) as [i| |]; try reflexivity.
    + destruct (nth_error (chunks (tick s)) i); [|reflexivity].
      match goal with |- context [if ?b then _ else _] => destruct b end; [reflexivity|].
      match goal with |- context [if ?b then _ else _] => destruct b end; [reflexivity|].
      match goal with |- context [grow_arena ?a ?b ?d ?e ?f] => pose proof (grow_arena_mem a b d e f) as Hm; destruct (grow_arena a b d e f) as [s1 [e0|]] end; cbn [fst mem upd_cur] in *; rewrite Hm; reflexivity.
    + destruct (IMAX <? n); [reflexivity|].
      match goal with |- context [grow_arena ?a ?b ?d ?e ?f] => pose proof (grow_arena_mem a b d e f) as Hm; destruct (grow_arena a b d e f) as [s1 [e0|]] end; cbn [fst mem upd_cur] in *; rewrite Hm; reflexivity.
  - destruct (is_top (tick s) h); reflexivity.
  - reflexivity.
  - destruct (Nat.eqb (depth (upd_live (tick s) [])) 0); [|reflexivity]. cbn [fst mem upd_cur upd_chunks].
    destruct (log_events_fields (upd_live (tick s) []) (drop_events c (upd_live (tick s) []))) as (_ & _ & _ & _ & _ & _ & Hm & _).
    rewrite Hm. reflexivity.
Qed.

(* The WithoutShrink defect of the pinned commit, as a refutation of the frame property.
   With `fix_without_shrink := false` (WithoutShrink::shrink copying old_layout.size() bytes,
   as the code did before commit cb4dad0) the model writes outside the block it returns; with
   the repaired behaviour the same history leaves the neighbouring block intact. *)
Module Refuted.
  Definition cf (fixed : bool) := mkCfg false true true true 512 32 16 fixed.
  Definition s0 := fst (init_with_size (cf false) 1 512 (Some (4096, 496))).
  Definition st (s : arena) (o : op) := fst (step (cf false) s o None).
  Definition s5 :=
    st (st (st (st (st s0 (OAlloc 0 [] 1 1 false)) (OAlloc 0 [] 64 1 false)) (OFill 1 7))
           (OAlloc 0 [] 16 1 false)) (OFill 2 9).
  Definition o := OShrink 0 [WShrink] 1 8 8.

  Example without_shrink_frame_refuted :
    exists a id p sz,
      o_res (snd (step (cf false) s5 o None)) = RBlock id p sz /\ ~ (p <= a < p + sz) /\
      mem (fst (step (cf false) s5 o None)) a <> mem s5 a.
  Proof. exists 4480, 3%nat, 4464, 8. vm_compute. repeat split; try discriminate. intros [_ H]; discriminate H. Qed.

  Example without_shrink_fixed_keeps_neighbour :
    forallb (fun a => mem (fst (step (cf true) s5 o None)) a =? mem s5 a)
            (map (fun k => 4479 + Z.of_nat k) (seq 0 16)) = true.
  Proof. vm_compute. reflexivity. Qed.
End Refuted.
