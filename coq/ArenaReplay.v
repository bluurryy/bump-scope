(* C03: repeating a workload after leaving its scope needs no new memory.  After the rewind to the
   checkpoint taken before it, every allocation returns the same address and the base allocator is
   not asked for anything — even if it would refuse every request. *)
From Coq Require Import ZArith List Lia.
From BS Require Import ChunkSpec Arena ArenaInv.
Import ListNotations.
Open Scope Z_scope.

Definition geomt (ch : chunk) : Z * Z * Z * Z := (cbase ch, csize ch, creq ch, cgranted ch).
Definition geoms (cs : list chunk) : list (Z * Z * Z * Z) := map geomt cs.

Lemma chunk_eq a b : geomt a = geomt b -> cpos a = cpos b -> a = b.
Proof. destruct a, b. unfold geomt. cbn. intros H ->. injection H as -> -> -> ->. reflexivity. Qed.

Lemma reset_chunk_geom c a b : geomt a = geomt b -> reset_chunk c a = reset_chunk c b.
Proof.
  intros H. apply chunk_eq.
  - unfold reset_chunk, set_pos, geomt in *. cbn. exact H.
  - unfold reset_chunk, set_pos, fresh_pos, content_start, content_end, geomt in *. cbn.
    injection H as -> -> _ _. reflexivity.
Qed.

Lemma geomt_reset c ch : geomt (reset_chunk c ch) = geomt ch.
Proof. reflexivity. Qed.

Definition agree (i : nat) (A B : list chunk) : Prop := forall k, (k <= i)%nat -> nth_error B k = nth_error A k.

Lemma geoms_length cs : length (geoms cs) = length cs.
Proof. apply map_length. Qed.

Lemma geoms_eq_length cs cs' : geoms cs' = geoms cs -> length cs' = length cs.
Proof. intros E. rewrite <- (geoms_length cs'), E. apply geoms_length. Qed.

Lemma geoms_set_nth l i ch x : nth_error l i = Some ch -> geomt x = geomt ch -> geoms (set_nth l i x) = geoms l.
Proof.
  revert i. induction l as [|y t IH]; intros [|i] H E; cbn in *; try discriminate.
  - injection H as ->. rewrite E. reflexivity.
  - f_equal. apply IH; assumption.
Qed.

(* the three places where chunk lists are compared by geometry (gprefix, sim, mono) are instances *)
Definition prefix {X} (l l' : list X) : Prop := exists t, l' = l ++ t.

Lemma prefix_trans {X} (l1 l2 l3 : list X) : prefix l1 l2 -> prefix l2 l3 -> prefix l1 l3.
Proof. intros [t1 ->] [t2 ->]. exists (t1 ++ t2). symmetry. apply app_assoc. Qed.

Definition gprefix (A B : list chunk) : Prop := exists t, geoms B = geoms A ++ t.

Lemma gprefix_nth A B k a : gprefix A B -> nth_error A k = Some a -> exists b, nth_error B k = Some b /\ geomt b = geomt a.
Proof.
  intros [t E] Ha. pose proof (map_nth_error geomt k A Ha : nth_error (geoms A) k = Some (geomt a)) as Hg.
  assert (Hb : nth_error (geoms B) k = Some (geomt a)) by (rewrite E, nth_error_app1; [exact Hg|apply nth_error_Some; congruence]).
  unfold geoms in Hb. rewrite nth_error_map in Hb. destruct (nth_error B k) as [b|]; [|discriminate].
  exists b. split; [reflexivity|]. cbn [option_map] in Hb. congruence.
Qed.

Lemma gprefix_length A B : gprefix A B -> (length A <= length B)%nat.
Proof. intros [t E]. apply (f_equal (@length _)) in E. rewrite app_length, !geoms_length in E. lia. Qed.

Lemma gprefix_set_nth A B i a b x y :
  gprefix A B -> nth_error A i = Some a -> nth_error B i = Some b -> geomt x = geomt a -> geomt y = geomt b ->
  gprefix (set_nth A i x) (set_nth B i y).
Proof.
  intros [t Ht] Ha Hb Ex Ey. exists t. rewrite (geoms_set_nth A i a x Ha Ex), (geoms_set_nth B i b y Hb Ey). exact Ht.
Qed.

Lemma agree_set_nth i k A B x :
  agree i A B -> (k <= S i)%nat -> (k < length A)%nat -> (k < length B)%nat -> agree k (set_nth A k x) (set_nth B k x).
Proof.
  intros Hag Hk HA HB m Hm. destruct (Nat.eq_dec m k) as [->|Hne].
  - rewrite !nth_error_set_nth_eq by assumption. reflexivity.
  - rewrite !nth_error_set_nth_neq by congruence. apply Hag. lia.
Qed.

Lemma walk_step_sim c i csA csB chA :
  agree i csA csB -> gprefix csA csB -> nth_error csA (S i) = Some chA ->
  exists chB, nth_error csB (S i) = Some chB /\ reset_chunk c chB = reset_chunk c chA /\
    forall x, geomt x = geomt chA ->
      agree (S i) (set_nth csA (S i) x) (set_nth csB (S i) x) /\ gprefix (set_nth csA (S i) x) (set_nth csB (S i) x) /\
      geoms (set_nth csA (S i) x) = geoms csA /\ geoms (set_nth csB (S i) x) = geoms csB.
Proof.
  intros Hag Hgp EnA. destruct (gprefix_nth csA csB (S i) chA Hgp EnA) as (chB & EnB & Eg).
  exists chB. split; [exact EnB|]. split; [exact (reset_chunk_geom c chB chA Eg)|]. intros x Ex.
  assert (ExB : geomt x = geomt chB) by congruence.
  split; [apply (agree_set_nth i); [exact Hag|apply le_n|exact (nth_error_some_lt _ _ _ EnA)|exact (nth_error_some_lt _ _ _ EnB)]|].
  split; [exact (gprefix_set_nth _ _ _ _ _ _ _ Hgp EnA EnB Ex ExB)|].
  split; [exact (geoms_set_nth _ _ _ _ EnA Ex)|exact (geoms_set_nth _ _ _ _ EnB ExB)].
Qed.

Section Walk.
  Context {R : Type} (c : cfg) (f : chunk -> option (R * chunk)).
  Hypothesis Hf : forall ch x ch1, f ch = Some (x, ch1) -> geomt ch1 = geomt ch.

  Lemma walk_next_facts : forall fuel cs i cs' j res, walk_next c f cs i fuel = (cs', j, res) ->
    geoms cs' = geoms cs /\ (i <= j)%nat /\ (forall k, (k <= i)%nat -> nth_error cs' k = nth_error cs k) /\
    ((i < length cs)%nat -> (j < length cs')%nat) /\ (res <> None -> (i < j < length cs')%nat).
  Proof.
    intros fuel cs i cs' j res H. destruct (walk_next_char c f _ _ _ _ _ _ H) as (Hij & Hlen & Hsame & Hmid & Hend).
    assert (Hj : (i < j -> j < length cs)%nat)
      by (intros Hlt; destruct (Hmid j (conj Hlt (le_n j))) as (ch & En & _); exact (nth_error_some_lt _ _ _ En)).
    split; [exact (walk_next_map c f geomt _ _ _ _ _ _ (geomt_reset c) Hf H)|]. split; [exact Hij|].
    split; [intros k Hk; apply Hsame; left; exact Hk|]. rewrite Hlen. split; [lia|].
    intros Hres. destruct res; [lia|congruence].
  Qed.

  Lemma walk_sim_found : forall fuel csA csB i csA' j x,
    agree i csA csB -> gprefix csA csB ->
    walk_next c f csA i fuel = (csA', j, Some x) ->
    forall fuelB, (fuel <= fuelB)%nat ->
    exists csB', walk_next c f csB i fuelB = (csB', j, Some x) /\ agree j csA' csB' /\
                 gprefix csA' csB' /\ geoms csA' = geoms csA /\ geoms csB' = geoms csB /\ (i < j)%nat.
  Proof.
    intros fuel csA csB i csA' j x Hag Hgp H fuelB Hfu.
    (* the walk of B and what it shares with A's; the rest is true of any walk *)
    enough (exists csB', walk_next c f csB i fuelB = (csB', j, Some x) /\ agree j csA' csB') as (csB' & HwB & Hagj).
    { destruct (walk_next_facts _ _ _ _ _ _ H) as (EgA & _ & _ & _ & Hij), (walk_next_facts _ _ _ _ _ _ HwB) as (EgB & _).
      exists csB'. split; [exact HwB|]. split; [exact Hagj|]. split; [unfold gprefix; rewrite EgA, EgB; exact Hgp|].
      split; [exact EgA|]. split; [exact EgB|]. apply Hij. discriminate. }
    revert csA csB i fuelB Hag Hgp H Hfu.
    induction fuel as [|fuel IH]; intros csA csB i fuelB Hag Hgp H Hfu; cbn [walk_next] in H; [discriminate|].
    destruct (nth_error csA (S i)) as [chA|] eqn:EnA; [|discriminate].
    destruct (walk_step_sim c i csA csB chA Hag Hgp EnA) as (chB & EnB & Er & Hstep).
    destruct fuelB as [|fuelB]; [lia|]. cbn [walk_next]. rewrite EnB, Er.
    destruct (f (reset_chunk c chA)) as [[y ch1]|] eqn:Ef.
    - injection H as <- <- <-. eexists. split; [reflexivity|]. apply Hstep. exact (Hf _ _ _ Ef).
    - destruct (Hstep (reset_chunk c chA) eq_refl) as (Hag' & Hgp' & _). apply (IH _ _ _ _ Hag' Hgp' H). lia.
  Qed.

  Lemma walk_sim_none : forall fuel csA csB i csA' j,
    agree i csA csB -> gprefix csA csB -> (i < length csA)%nat -> (length csA - S i <= fuel)%nat ->
    walk_next c f csA i fuel = (csA', j, None) ->
    j = (length csA - 1)%nat /\ length csA' = length csA /\ geoms csA' = geoms csA /\
    forall fuelB, exists csB1,
      walk_next c f csB i (fuelB + (j - i)) = walk_next c f csB1 j fuelB /\
      agree j csA' csB1 /\ gprefix csA' csB1 /\ geoms csB1 = geoms csB.
  Proof using c f.
    induction fuel as [|fuel IH]; intros csA csB i csA' j Hag Hgp Hi Hfu H; cbn [walk_next] in H.
    2: destruct (nth_error csA (S i)) as [chA|] eqn:EnA.
    (* the walk stops at i, for want of fuel or of chunks: either way i is the last index *)
    1,3: injection H as <- <-; assert (i = length csA - 1)%nat by (try apply nth_error_None in EnA; lia); subst i;
      repeat (split; [reflexivity|]); intros fuelB; exists csB; rewrite Nat.sub_diag, Nat.add_0_r; auto.
    destruct (walk_step_sim c i csA csB chA Hag Hgp EnA) as (chB & EnB & Er & Hstep).
    destruct (Hstep (reset_chunk c chA) eq_refl) as (Hag' & Hgp' & EgA & EgB).
    destruct (f (reset_chunk c chA)) as [[y ch1]|] eqn:Ef; [discriminate|].
    pose proof (nth_error_some_lt _ _ _ EnA) as HlA.
    destruct (IH _ _ _ _ _ Hag' Hgp' ltac:(rewrite set_nth_length; lia) ltac:(rewrite set_nth_length; lia) H)
      as (Ej & El & Eg' & Hrest).
    rewrite set_nth_length in Ej, El. rewrite EgA in Eg'.
    split; [exact Ej|]. split; [exact El|]. split; [exact Eg'|].
    intros fuelB. destruct (Hrest fuelB) as (csB1 & Hw & Hagj & Hgpj & EgB1).
    exists csB1. rewrite EgB in EgB1. split; [|auto].
    replace (fuelB + (j - i))%nat with (S (fuelB + (j - S i)))%nat by lia. cbn [walk_next]. rewrite EnB, Er, Ef. exact Hw.
  Qed.
End Walk.

Definition sim (G : list (Z * Z * Z * Z)) (j : nat) (A B : arena) : Prop :=
  cur A = Cur j /\ cur B = Cur j /\ aligns A = aligns B /\ (j < length (chunks A))%nat /\
  agree j (chunks A) (chunks B) /\
  (exists t, G = geoms (chunks A) ++ t) /\ (exists t, geoms (chunks B) = G ++ t).

Lemma sim_gprefix G j A B : sim G j A B -> gprefix (chunks A) (chunks B).
Proof. intros (_ & _ & _ & _ & _ & HA & HB). exact (prefix_trans _ _ _ HA HB). Qed.

Lemma sim_next G j A B j' A' B' :
  sim G j A B -> (exists t, G = geoms (chunks A') ++ t) -> geoms (chunks B') = geoms (chunks B) ->
  aligns A' = aligns A -> aligns B' = aligns B -> cur A' = Cur j' -> cur B' = Cur j' ->
  (j' < length (chunks A'))%nat -> agree j' (chunks A') (chunks B') -> sim G j' A' B'.
Proof.
  intros (_ & _ & Eal & _ & _ & _ & HB) HA' EgB EaA EaB EcA EcB Hj Hag. unfold sim. rewrite EgB.
  repeat split; try assumption. congruence.
Qed.

Lemma chunk_alloc_geomt c m ch size align p ch1 : chunk_alloc c m ch size align = Some (p, ch1) -> geomt ch1 = geomt ch.
Proof. intros H. rewrite (chunk_alloc_set_pos _ _ _ _ _ _ _ H). reflexivity. Qed.

Lemma raw_alloc_sim c G j A B size align r A' p :
  raw_alloc c A size align r = (A', inl p) ->
  (exists t, G = geoms (chunks A') ++ t) ->
  sim G j A B ->
  exists j' B', raw_alloc c B size align None = (B', inl p) /\ ledger B' = ledger B /\ sim G j' A' B'.
Proof.
  intros H HG' Hsim. pose proof (sim_gprefix _ _ _ _ Hsim) as Hgp.
  pose proof Hsim as (EcA & EcB & Eal & Hj & Hag & _ & HGB).
  assert (Em : malign B = malign A) by (unfold malign; rewrite Eal; reflexivity).
  destruct (nth_error (chunks A) j) as [ch|] eqn:EnA; [|apply nth_error_None in EnA; lia].
  assert (EnB : nth_error (chunks B) j = Some ch) by (rewrite (Hag j (le_n j)); exact EnA).
  rewrite (raw_alloc_cur c A size align r j ch EcA EnA) in H. rewrite (raw_alloc_cur c B size align None j ch EcB EnB), Em.
  set (f := fun ch0 => chunk_alloc c (malign A) ch0 size align) in *.
  pose proof (fun ch0 x ch1 => chunk_alloc_geomt c (malign A) ch0 size align x ch1) as Hf.
  change (chunk_alloc c (malign A) ch size align) with (f ch) in *. destruct (f ch) as [[p' ch1]|] eqn:Ef.
  - (* fast path *)
    injection H as <- <-. exists j. eexists. split; [reflexivity|]. split; [reflexivity|].
    apply (sim_next G j A B); try assumption; try reflexivity; cbn [chunks upd_chunks].
    + exact (geoms_set_nth _ _ _ _ EnB (Hf _ _ _ Ef)).
    + rewrite set_nth_length. exact Hj.
    + apply (agree_set_nth j); [exact Hag|lia|exact Hj|exact (nth_error_some_lt _ _ _ EnB)].
  - (* slow path: B's walk finds the chunk A ends in *)
    destruct (in_another_chunk_cases c A (Cur j) size align f r A' _ H) as ((_ & _ & _ & EaA & _) & cs & jw & wres & Ew & Hcase).
    enough (exists j' csB', walk_next c f (chunks B) j (length (chunks B)) = (csB', j', Some p) /\ cur A' = Cur j' /\
              (j' < length (chunks A'))%nat /\ agree j' (chunks A') csB' /\ geoms csB' = geoms (chunks B))
      as (j' & csB' & HwB & EcA' & Hj' & Hag' & EgB).
    { rewrite (in_another_chunk_found c B j size align f None csB' j' p HwB). exists j'. eexists. split; [reflexivity|].
      split; [reflexivity|]. apply (sim_next G j A B); try assumption; reflexivity. }
    destruct wres as [x|].
    + destruct Hcase as (Ech & Ecu & [= <-]). rewrite Ech.
      destruct (walk_sim_found c _ Hf _ _ _ _ _ _ _ Hag Hgp Ew (length (chunks B)) (gprefix_length _ _ Hgp))
        as (csB' & HwB & Hagj & _ & _ & EgB & _).
      exists jw, csB'. split; [exact HwB|]. split; [exact Ecu|]. split; [|split; assumption].
      apply (walk_next_facts c _ Hf _ _ _ _ _ _ Ew). discriminate.
    + (* A appended the chunk mk: B's walk goes on to a chunk that resets to mk *)
      destruct Hcase as [(_ & _ & e & [=])|(n & addr & g & _ & _ & Ecu & Hmk)].
      set (mk := make_chunk c n addr g) in *.
      destruct (f mk) as [[p' ch1]|] eqn:Efm; destruct Hmk as (Ech & [= <-]). rewrite Ech in HG' |- *.
      pose proof (Hf _ _ _ Efm) as E1.
      assert (En1 : nth_error (cs ++ [ch1]) (length cs) = Some ch1) by apply nth_error_app_last.
      destruct (walk_sim_none c _ _ _ _ _ _ _ Hag Hgp Hj (Nat.le_sub_l _ _) Ew) as (Ejw & Hlcs & _ & Hrest).
      destruct (Hrest (S (length (chunks B) - S (jw - j)))) as (csB1 & Hw & Hagj & _ & EgB1).
      destruct (gprefix_nth _ csB1 _ _ (prefix_trans _ _ _ HG' (eq_ind_r (prefix G) HGB EgB1)) En1) as (chB & EnBL & EgBL).
      pose proof (nth_error_some_lt _ _ _ EnBL) as HLlt.
      replace (S (length (chunks B) - S (jw - j)) + (jw - j))%nat with (length (chunks B)) in Hw
        by (rewrite (geoms_eq_length _ _ EgB1) in HLlt; lia).
      (* a new chunk is created at its fresh position: reset_chunk c mk is mk *)
      pose proof (reset_chunk_geom c chB mk (eq_trans EgBL E1) : reset_chunk c chB = mk) as Hreset.
      exists (length cs), (set_nth csB1 (length cs) ch1).
      split; [rewrite Hw; cbn [walk_next]; replace (S jw) with (length cs) by lia; rewrite EnBL, Hreset, Efm; reflexivity|].
      split; [exact Ecu|]. split; [exact (nth_error_some_lt _ _ _ En1)|]. split.
      * rewrite <- (set_nth_app_last cs mk ch1).
        apply (agree_set_nth jw); [|lia|rewrite app_length; cbn; lia|exact HLlt].
        intros k Hk. rewrite nth_error_app1 by lia. exact (Hagj k Hk).
      * rewrite (geoms_set_nth _ _ _ _ EnBL); [exact EgB1|congruence].
Qed.

(* what an allocation leaves alone *)
Definition mono (j : nat) (s s' : arena) : Prop :=
  (exists t, geoms (chunks s') = geoms (chunks s) ++ t) /\ aligns s' = aligns s /\
  (forall k, (k < j)%nat -> nth_error (chunks s') k = nth_error (chunks s) k) /\
  (exists j', cur s' = Cur j' /\ (j <= j')%nat /\ (j' < length (chunks s'))%nat).

Lemma mono_intro j s cs t j' s' :
  (j < length (chunks s))%nat -> geoms cs = geoms (chunks s) -> (forall k, (k < j)%nat -> nth_error cs k = nth_error (chunks s) k) ->
  chunks s' = cs ++ t -> aligns s' = aligns s -> cur s' = Cur j' -> (j <= j' < length (cs ++ t))%nat -> mono j s s'.
Proof.
  intros Hj Eg Hpre Ech Eal Ec Hj'. pose proof (geoms_eq_length _ _ Eg) as El. unfold mono. rewrite Ech.
  split; [exists (geoms t); rewrite <- Eg; apply map_app|]. split; [exact Eal|].
  split; [intros k Hk; rewrite nth_error_app1 by lia; exact (Hpre k Hk)|]. exists j'. split; [exact Ec|exact Hj'].
Qed.

Lemma mono_refl j s : cur s = Cur j -> (j < length (chunks s))%nat -> mono j s s.
Proof.
  intros Ec Hj. apply (mono_intro j s (chunks s) [] j); auto using app_nil_r. rewrite app_nil_r. lia.
Qed.

Lemma mono_trans j j1 a b d : mono j a b -> cur b = Cur j1 -> mono j1 b d -> mono j a d.
Proof.
  intros (G1 & A1 & P1 & (jb & Ecb & Hjb & _)) Ej1 (G2 & A2 & P2 & (jd & Ecd & Hjd & Hld)).
  assert (jb = j1) by congruence. subst jb.
  split; [exact (prefix_trans _ _ _ G1 G2)|]. split; [congruence|].
  split; [intros k Hk; rewrite P2 by lia; exact (P1 k Hk)|]. exists jd. split; [exact Ecd|]. split; [lia|exact Hld].
Qed.

Lemma raw_alloc_mono c s j size align r :
  cur s = Cur j -> (j < length (chunks s))%nat -> mono j s (fst (raw_alloc c s size align r)).
Proof.
  intros Ec Hj. destruct (nth_error (chunks s) j) as [ch|] eqn:En; [|apply nth_error_None in En; lia].
  rewrite (raw_alloc_cur c s size align r j ch Ec En).
  pose proof (fun ch0 x ch1 => chunk_alloc_geomt c (malign s) ch0 size align x ch1) as Hf.
  destruct (chunk_alloc c (malign s) ch size align) as [[p ch1]|] eqn:Ef.
  - apply (mono_intro j s (set_nth (chunks s) j ch1) [] j); try reflexivity; try assumption.
    + exact (geoms_set_nth _ _ _ _ En (Hf _ _ _ Ef)).
    + intros k Hk. apply nth_error_set_nth_neq. lia.
    + symmetry. apply app_nil_r.
    + rewrite app_nil_r, set_nth_length. lia.
  - destruct (in_another_chunk c s (Cur j) size align _ r) as [s' res] eqn:H. cbn [fst].
    destruct (in_another_chunk_cases _ _ _ _ _ _ _ _ _ H) as ((_ & _ & _ & Eal & _) & cs & jw & wres & Ew & Hcase).
    destruct (walk_next_facts c _ Hf _ _ _ _ _ _ Ew) as (G1 & G2 & G3 & G4 & _). specialize (G4 Hj).
    assert (M : forall t j', chunks s' = cs ++ t -> cur s' = Cur j' -> (j <= j' < length (cs ++ t))%nat -> mono j s s')
      by (intros t j' E1 E2; apply (mono_intro j s cs t j'); [exact Hj|exact G1|intros k Hk; apply G3; lia|exact E1|exact Eal|exact E2]).
    destruct wres as [x|]; [|destruct Hcase as [Hcase|(n & addr & g & _ & _ & Ecu & Hmk)]].
    + apply (M [] jw); rewrite ?app_nil_r; [apply Hcase..|lia].
    + apply (M [] j); rewrite ?app_nil_r; [apply Hcase..|lia].
    + destruct (chunk_alloc c (malign s) (make_chunk c n addr g) size align) as [[x ch1]|];
        (eapply (M [_] (length cs)); [apply Hmk|exact Ecu|rewrite app_length; cbn; lia]).
Qed.

Fixpoint allocs (c : cfg) (s : arena) (w : list (Z * Z)) (rs : list resp) : arena * list (Z + err) :=
  match w with
  | [] => (s, [])
  | (size, align) :: w' =>
    let '(s1, res) := raw_alloc c s size align (hd None rs) in
    let '(s2, out) := allocs c s1 w' (tl rs) in
    (s2, res :: out)
  end.

Definition is_inl {A B} (x : A + B) : Prop := match x with inl _ => True | inr _ => False end.

Lemma allocs_mono c : forall w rs s j, cur s = Cur j -> (j < length (chunks s))%nat -> mono j s (fst (allocs c s w rs)).
Proof.
  induction w as [|[size align] w IH]; intros rs s j Ec Hj; [apply mono_refl; assumption|].
  cbn [allocs]. pose proof (raw_alloc_mono c s j size align (hd None rs) Ec Hj) as M1.
  destruct (raw_alloc c s size align (hd None rs)) as [s1 res] eqn:Ea. cbn [fst] in M1.
  pose proof M1 as (_ & _ & _ & (j1 & Ec1 & _ & Hl1)).
  pose proof (IH (tl rs) s1 j1 Ec1 Hl1) as M2.
  destruct (allocs c s1 w (tl rs)) as [s2 out]. exact (mono_trans j j1 s s1 s2 M1 Ec1 M2).
Qed.

Theorem allocs_replay c : forall w rs A Afin outs,
  allocs c A w rs = (Afin, outs) -> Forall is_inl outs ->
  forall B j, sim (geoms (chunks Afin)) j A B ->
  exists Bfin, allocs c B w [] = (Bfin, outs) /\ ledger Bfin = ledger B.
Proof.
  induction w as [|[size align] w IH]; intros rs A Afin outs H Hall B j Hsim.
  - cbn in *. injection H as <- <-. exists B. split; reflexivity.
  - cbn [allocs] in H. destruct (raw_alloc c A size align (hd None rs)) as [A1 res] eqn:Ea.
    destruct (allocs c A1 w (tl rs)) as [A2 out] eqn:Ew. injection H as <- <-.
    inversion Hall as [|? ? Hres Hrest]; subst. destruct res as [p|e]; [|destruct Hres].
    (* the geometry of A1 is still inside that of the final state *)
    pose proof Hsim as (EcA & _ & _ & HjA & _).
    pose proof (raw_alloc_mono c A j size align (hd None rs) EcA HjA) as M1. rewrite Ea in M1. cbn [fst] in M1.
    destruct M1 as (_ & _ & _ & (j1 & Ec1 & _ & Hl1)).
    pose proof (allocs_mono c w (tl rs) A1 j1 Ec1 Hl1) as M2. rewrite Ew in M2. cbn [fst] in M2.
    destruct M2 as ([t Et] & _).
    destruct (raw_alloc_sim c _ j A B size align (hd None rs) A1 p Ea (ex_intro _ t Et) Hsim) as (j' & B1 & Hb & Hl & Hsim1).
    destruct (IH (tl rs) A1 A2 out Ew Hrest B1 j' Hsim1) as (Bfin & Hbf & Hlf).
    exists Bfin. cbn [allocs hd tl]. rewrite Hb, Hbf. split; [reflexivity|congruence].
Qed.

(* C03.  The rewind to (j, cpos ch) stands for scope exit, guard drop / reset and reset_to; `[]`
   answers every request to the base allocator with a refusal, and the ledger of base-allocator
   events does not grow. *)
Theorem replay_needs_no_chunk c s j ch w rs Afin outs :
  cur s = Cur j -> nth_error (chunks s) j = Some ch ->
  allocs c s w rs = (Afin, outs) -> Forall is_inl outs ->
  let B := do_reset_to c Afin (mkCp (Cur j) (cpos ch) (epoch s)) in
  exists Bfin, allocs c B w [] = (Bfin, outs) /\ ledger Bfin = ledger B.
Proof.
  intros Ec En H Hall B. pose proof (nth_error_some_lt _ _ _ En) as Hj.
  pose proof (allocs_mono c w rs s j Ec Hj) as M. rewrite H in M. cbn [fst] in M. destruct M as (Hpre & Eal & Ppre & _).
  (* chunk j of the final state has the geometry of ch: rewinding it gives ch back *)
  destruct (gprefix_nth _ _ j ch Hpre En) as (chj & Enj & Egj).
  assert (Hrestore : set_pos chj (cpos ch) = ch) by (apply chunk_eq; [exact Egj|reflexivity]).
  apply (allocs_replay c w rs s Afin outs H Hall B j).
  unfold B, do_reset_to. cbn [cp_state cp_addr]. rewrite Enj, Hrestore.
  unfold sim. cbn [cur chunks aligns upd_cur upd_chunks].
  split; [exact Ec|]. split; [reflexivity|]. split; [symmetry; exact Eal|]. split; [exact Hj|]. split.
  - intros k Hk. destruct (Nat.eq_dec k j) as [->|Hne].
    + rewrite nth_error_set_nth_eq by exact (nth_error_some_lt _ _ _ Enj). symmetry. exact En.
    + rewrite nth_error_set_nth_neq by congruence. apply Ppre. lia.
  - split; [exact Hpre|]. rewrite (geoms_set_nth _ _ _ _ Enj (eq_sym Egj)). exists []. symmetry. apply app_nil_r.
Qed.

(* non-vacuity: a workload that spans four chunks (three of them new), replayed while the base
   allocator refuses everything *)
Module ReplayExample.
  Definition c0 : cfg := mkCfg true false true true 512 32 16 true.
  Definition s0 : arena := fst (init_with_size c0 1 512 (Some (65536, 512))).
  Definition w0 : list (Z * Z) := [(300, 8); (300, 8); (700, 16); (100, 1); (3000, 32)].
  Definition rs0 : list resp := [None; Some (131072, 1024); Some (262144, 2048); None; Some (524288, 8192)].

  Example workload_succeeds_and_replays :
    let '(Afin, outs) := allocs c0 s0 w0 rs0 in
    outs = [inl 65568; inl 131104; inl 262176; inl 262876; inl 524320] /\
    length (chunks Afin) = 4%nat /\
    let B := do_reset_to c0 Afin (mkCp (Cur 0) 65568 (epoch s0)) in
    snd (allocs c0 B w0 []) = outs /\ ledger (fst (allocs c0 B w0 [])) = ledger B.
  Proof. vm_compute. repeat split; reflexivity. Qed.
End ReplayExample.
