(* ArenaHeader.v — where the chunk header is (C05 "never touches bytes outside the blocks it was granted",
   C10 "with its header inside the granted block"): the header of a chunk is the `hs` bytes at the
   low end of the chunk when bumping upwards and at the high end of the (size-aligned) chunk when
   bumping downwards (`RawChunk::header` / `NonDummyChunk::new` in raw_bump.rs).  For every chunk of
   a state satisfying the invariant the header lies inside the block granted by the base allocator,
   is aligned to the header alignment, shares no byte with the content range — so no allocation,
   prepared range or live block can overlap it — and no live block overlaps the header of ANY chunk
   of the arena (blocks live in content ranges, granted blocks are pairwise disjoint).
   All the arena's own bookkeeping writes (pos, prev / next links) go to headers: together with
   ArenaWrites.v (data writes stay inside live blocks) this places every write of the arena inside
   a granted block it still holds. *)
From Coq Require Import ZArith List Lia.
From BS Require Import ChunkSpec Arena ArenaInv.
Import ListNotations.
Open Scope Z_scope.

Definition header_start (c : cfg) (ch : chunk) : Z :=
  if up c then cbase ch else cbase ch + csize ch - hs c.

Theorem header_inside_granted c ch :
  chunk_geom c ch ->
  cbase ch <= header_start c ch /\ header_start c ch + hs c <= cbase ch + cgranted ch.
Proof.
  intros Hg. unfold chunk_geom in Hg. unfold header_start.
  destruct Hg as (Hb & Hdb & H16 & Hdn & Hhs & Hreq & Hsz & HW & HI).
  destruct (up c); lia.
Qed.

Theorem header_disjoint_from_content c ch :
  header_start c ch + hs c <= content_start c ch \/ content_end c ch <= header_start c ch.
Proof. unfold header_start, content_start, content_end. destruct (up c); lia. Qed.

Theorem header_and_content_tile_the_chunk c ch :
  (if up c then header_start c ch + hs c = content_start c ch /\ content_end c ch = cbase ch + csize ch
   else content_start c ch = cbase ch /\ content_end c ch = header_start c ch /\ header_start c ch + hs c = cbase ch + csize ch).
Proof. unfold header_start, content_start, content_end. destruct (up c); lia. Qed.

Theorem header_aligned c ch :
  cfg_ok c -> chunk_geom c ch -> (ha c | header_start c ch).
Proof.
  intros Hc Hg. unfold chunk_geom in Hg.
  destruct Hg as (Hb & Hdb & H16 & Hdn & Hhs & Hreq & Hsz & HW & HI).
  assert (Hh : (ha c | hs c)) by (unfold cfg_ok, hdr_ok in Hc; tauto).
  unfold header_start. destruct (up c) eqn:E; [exact Hdb|].
  apply Z.divide_sub_r; [apply Z.divide_add_r; [exact Hdb|apply Hdn; reflexivity]|exact Hh].
Qed.

Lemma in_chunk_misses_header c ch p sz :
  in_chunk c ch p sz -> disjoint_rng p sz (header_start c ch) (hs c).
Proof.
  unfold in_chunk, disjoint_rng. intros [H1 H2].
  destruct (header_disjoint_from_content c ch); lia.
Qed.

Theorem live_block_misses_every_header c s b k ch :
  cfg_ok c -> inv c s -> In b (live s) -> nth_error (chunks s) k = Some ch ->
  disjoint_rng (bptr b) (bsize b) (header_start c ch) (hs c).
Proof.
  intros Hc (Hg & Hl & _ & _) Hin Hk.
  destruct Hg as (Hok & Hdis & _ & _).
  rewrite Forall_forall in Hl. specialize (Hl b Hin).
  destruct Hl as (Hs0 & _ & (k' & ch' & Hk' & Hic & _)).
  destruct (Nat.eq_dec k' k) as [E|NE].
  - subst k'. rewrite Hk in Hk'. injection Hk' as <-. apply in_chunk_misses_header. exact Hic.
  - (* another chunk: the granted blocks are disjoint, the block is inside one, the header inside the other *)
    rewrite Forall_forall in Hok.
    assert (Hc1 : chunk_ok c ch) by (apply Hok; eapply nth_error_In; eassumption).
    assert (Hc2 : chunk_ok c ch') by (apply Hok; eapply nth_error_In; eassumption).
    destruct Hc1 as [Hg1 _]. destruct Hc2 as [Hg2 _].
    pose proof (header_inside_granted c ch Hg1) as [Hh1 Hh2].
    specialize (Hdis k' k ch' ch NE Hk' Hk).
    unfold in_chunk, content_start, content_end in Hic.
    unfold chunk_geom in Hg2. destruct Hg2 as (Hb & Hdb & H16 & Hdn & Hhs & Hreq & Hsz & HW & HI).
    unfold disjoint_rng. destruct (up c); lia.
Qed.

(* non-vacuity: a concrete downward chunk with an over-aligned 64-byte header *)
Example header_example :
  let c := mkCfg false false true true 512 64 64 true in
  let ch := mkChunk 65536 512 512 520 (65536 + 448) in
  header_start c ch = 65984 /\ content_start c ch = 65536 /\ content_end c ch = 65984.
Proof. vm_compute. repeat split; reflexivity. Qed.
