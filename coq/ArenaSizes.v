(* ArenaSizes.v — C10: each later chunk is strictly larger than its predecessor, in every
   reachable state.  Only the sizes of the chunk list matter: every operation either keeps them,
   appends one chunk made by grow_arena (whose size is at least 2 * previous - 16 > previous),
   keeps only the last chunk (reset) or drops all (drop). *)
From Coq Require Import ZArith List Lia Bool.
From BS Require Import Word ChunkSpec Arena ArenaInv.
Import ListNotations.
Open Scope Z_scope.

Definition sizes (s : arena) : list Z := map csize (chunks s).

Fixpoint incr (l : list Z) : Prop :=
  match l with
  | [] => True
  | a :: t => 32 <= a /\ match t with [] => True | b :: _ => a < b end /\ incr t
  end.

Definition last_size (l : list Z) : option Z := match rev l with x :: _ => Some x | [] => None end.

Lemma incr_app l x : incr l -> 32 <= x -> (forall p, last_size l = Some p -> p < x) -> incr (l ++ [x]).
Proof.
  induction l as [|a t IH]; intros Hi Hx Hl; [cbn; auto|].
  cbn [app incr] in *. destruct Hi as (Ha & Hn & Ht). split; [exact Ha|]. split.
  - destruct t as [|b t']; cbn [app]; [apply Hl; reflexivity|exact Hn].
  - apply IH; [exact Ht|exact Hx|]. intros p Hp. apply Hl. unfold last_size in *. cbn [rev].
    destruct (rev t) as [|y ys] eqn:Er; [discriminate|]. cbn. exact Hp.
Qed.

Lemma incr_last_only l x t : incr l -> rev l = x :: t -> incr [x].
Proof.
  intros Hi Hr. cbn. split; [|auto].
  assert (Hin : In x l) by (apply in_rev; rewrite Hr; left; reflexivity).
  clear Hr. induction l as [|a l' IH]; [destruct Hin|]. cbn [incr] in Hi. destruct Hi as (Ha & _ & Ht).
  destruct Hin as [->|Hin]; [exact Ha|exact (IH Ht Hin)].
Qed.

Lemma sizes_set_nth_same_size l i ch ch1 : nth_error l i = Some ch -> csize ch1 = csize ch -> map csize (set_nth l i ch1) = map csize l.
Proof.
  revert i. induction l as [|x t IH]; intros [|i] H E; cbn in *; try discriminate.
  - injection H as ->. rewrite E. reflexivity.
  - f_equal. apply IH; assumption.
Qed.

Lemma sizes_set_cur_pos s p : sizes (set_cur_pos s p) = sizes s.
Proof.
  unfold set_cur_pos. destruct (cur s) as [i| |]; try reflexivity.
  destruct (nth_error (chunks s) i) as [ch|] eqn:E; [|reflexivity]. exact (sizes_set_nth_same_size _ i ch (set_pos ch p) E eq_refl).
Qed.

(* trusted of the base allocator: at least the requested size *)
Definition grant_ok (c : cfg) (l : list Z) (size align : Z) (r : resp) : Prop :=
  match r with
  | Some (_, g) => forall n, new_chunk_size c (last_size l) size align = Some n -> n <= g
  | None => True
  end.

Lemma prev_size_sizes s : prev_size s = last_size (sizes s).
Proof.
  unfold prev_size, last_size, sizes. rewrite <- map_rev. destruct (rev (chunks s)); reflexivity.
Qed.

(* what a request for a chunk does to the list of sizes; every path of an allocation is of this
   kind *)
Definition grown (c : cfg) (size align : Z) (r : resp) (l l' : list Z) : Prop :=
  l' = l \/ exists n addr g, r = Some (addr, g) /\ new_chunk_size c (last_size l) size align = Some n /\
             l' = l ++ [csize (make_chunk c n addr g)].

(* the new chunk's size is at least n, and n >= 2 * previous - 16 *)
Lemma grown_incr c size align r l l' :
  cfg_ok c -> incr l -> grant_ok c l size align r -> grown c size align r l l' -> incr l'.
Proof.
  intros [Hh _] Hi Hg [->|(n & addr & g & -> & En & ->)]; [exact Hi|]. specialize (Hg n En).
  destruct (new_chunk_size_some _ _ _ _ _ En) as (hint & -> & _ & Hprev).
  pose proof (size_from_hint_facts (up c) (hs c) (ha c) Hh hint) as (Hn16 & Hnha & Hnge & Hnhs & _).
  set (n := spec_size_from_hint (up c) (hs c) (ha c) hint) in *.
  pose proof (align_size_between (up c) (hs c) (ha c) Hh n g Hn16 Hnha Hg) as (Hun & _).
  destruct Hh as (_ & _ & _ & _ & H32 & _).
  unfold make_chunk. cbn [csize set_pos].
  apply incr_app; [exact Hi|lia|].
  intros p Hp. rewrite Hp in Hprev. lia.
Qed.

Lemma grow_arena_grown c s size align r : grown c size align r (sizes s) (sizes (fst (grow_arena c s size align r))).
Proof.
  destruct (grow_arena c s size align r) as [s1 e] eqn:E. destruct (grow_arena_shape _ _ _ _ _ _ _ E) as (_ & H). cbn [fst].
  destruct e; [left; unfold sizes; f_equal; apply H|right].
  destruct H as (n & addr & g & Er & En & Ech & _). exists n, addr, g. rewrite <- prev_size_sizes. unfold sizes. rewrite Ech, map_app. auto.
Qed.

Lemma grow_arena_sizes_shape c s size align r :
  sizes (fst (grow_arena c s size align r)) = sizes s \/
  exists x, sizes (fst (grow_arena c s size align r)) = sizes s ++ [x].
Proof. destruct (grow_arena_grown c s size align r) as [H|(n & addr & g & _ & _ & H)]; [left|right; eexists]; exact H. Qed.

Lemma in_another_chunk_grown {R} c s h size align (f : chunk -> option (R * chunk)) r :
  (forall ch x ch1, f ch = Some (x, ch1) -> csize ch1 = csize ch) ->
  grown c size align r (sizes s) (sizes (fst (in_another_chunk c s h size align f r))).
Proof.
  intros Hf. destruct (in_another_chunk c s h size align f r) as [s' res] eqn:H. cbn [fst].
  destruct (in_another_chunk_cases _ _ _ _ _ _ _ _ _ H) as [_ Hcase].
  assert (Htail : forall prev cs h0, prev = last_size (sizes s) -> map csize cs = sizes s ->
            slow_tail c f size align r prev cs h0 s' res -> grown c size align r (sizes s) (sizes s')).
  { intros prev cs h0 -> Es [(Ech & _)|(n & addr & g & Er & En & _ & Hmk)]; unfold sizes at 2; [left; rewrite Ech; exact Es|].
    right. exists n, addr, g. split; [exact Er|]. split; [exact En|].
    destruct (f (make_chunk c n addr g)) as [[x ch1]|] eqn:Ef; destruct Hmk as (-> & _); rewrite map_app, Es; cbn [map];
      [rewrite (Hf _ _ _ Ef)|]; reflexivity. }
  destruct h as [i| |]; [|exact (Htail _ _ _ (prev_size_sizes s) eq_refl Hcase)|left; unfold sizes; f_equal; apply Hcase].
  destruct Hcase as (cs & j & wres & Ew & Hcase).
  pose proof (walk_next_map c f csize _ _ _ _ _ _ (fun _ => eq_refl) Hf Ew) as Es.
  destruct wres as [x|]; [left; destruct Hcase as (Ech & _); unfold sizes at 1; rewrite Ech; exact Es|].
  refine (Htail _ cs _ _ Es Hcase). rewrite prev_size_sizes. unfold sizes. cbn [chunks upd_chunks]. rewrite Es. reflexivity.
Qed.

Lemma fast_or_slow_grown {R} c s size align (f : chunk -> option (R * chunk)) r :
  (forall ch x ch1, f ch = Some (x, ch1) -> csize ch1 = csize ch) ->
  grown c size align r (sizes s) (sizes (fst (fast_or_slow c s size align f r))).
Proof.
  intros Hf. destruct (fast_or_slow c s size align f r) as [s' res] eqn:H. cbn [fst].
  destruct (fast_or_slow_cases c s size align f r s' res H) as [(i & ch & x & ch1 & _ & En & Ef & -> & _)|[Hs|(_ & -> & _)]].
  - left. exact (sizes_set_nth_same_size _ _ _ _ En (Hf _ _ _ Ef)).
  - pose proof (in_another_chunk_grown c s (cur s) size align f r Hf) as G. rewrite Hs in G. exact G.
  - left. reflexivity.
Qed.

Lemma chunk_alloc_size c m ch size align p ch1 : chunk_alloc c m ch size align = Some (p, ch1) -> csize ch1 = csize ch.
Proof. intros H. rewrite (chunk_alloc_set_pos _ _ _ _ _ _ _ H). reflexivity. Qed.

Lemma raw_alloc_slow_grown c s size align r : grown c size align r (sizes s) (sizes (fst (raw_alloc_slow c s size align r))).
Proof. apply in_another_chunk_grown. intros ch x ch1. apply chunk_alloc_size. Qed.

Lemma raw_alloc_grown c s size align r : grown c size align r (sizes s) (sizes (fst (raw_alloc c s size align r))).
Proof. apply fast_or_slow_grown. intros ch x ch1. apply chunk_alloc_size. Qed.

Lemma raw_prepare_grown c s size align r : grown c size align r (sizes s) (sizes (fst (raw_prepare c s size align r))).
Proof.
  rewrite raw_prepare_fast_or_slow. apply fast_or_slow_grown.
  intros ch x ch1 H. rewrite (prepare_sized_readonly _ _ _ _ _ _ _ H). reflexivity.
Qed.

Lemma raw_prepare_range_grown c s size align r : grown c size align r (sizes s) (sizes (fst (raw_prepare_range c s size align r))).
Proof.
  rewrite raw_prepare_range_fast_or_slow. apply fast_or_slow_grown.
  intros ch x ch1 H. rewrite (prepare_action_readonly _ _ _ _ _ _ H). reflexivity.
Qed.

Lemma sizes_dealloc_assume_last c s p sz : sizes (dealloc_assume_last c s p sz) = sizes s.
Proof. unfold dealloc_assume_last. destruct (negb (deallocates c)); [reflexivity|]. destruct (up c); apply sizes_set_cur_pos. Qed.
Lemma sizes_raw_dealloc c s p sz : sizes (raw_dealloc c s p sz) = sizes s.
Proof. unfold raw_dealloc. destruct (negb (deallocates c)); [reflexivity|]. destruct (is_last c s p sz); [apply sizes_dealloc_assume_last|reflexivity]. Qed.

Lemma realloc_case_grown (P : Z -> Z -> Prop) K c s ptr len nsize nalign r x :
  realloc_case P K c s ptr len nsize nalign r x -> grown c nsize nalign r (sizes s) (sizes (fst x)).
Proof.
  apply (realloc_case_state P K c s ptr len nsize nalign r x (fun t => grown c nsize nalign r (sizes s) (sizes t))).
  - intros t m H. exact H.
  - left. reflexivity.
  - intros p q _. left. apply sizes_set_cur_pos.
  - apply raw_alloc_grown.
  - apply raw_alloc_slow_grown.
Qed.

Lemma sizes_do_reset_to c s cp : sizes (do_reset_to c s cp) = sizes s.
Proof.
  unfold do_reset_to. destruct (cp_state cp) as [j| |]; try reflexivity.
  - destruct (nth_error (chunks s) j) as [ch|] eqn:En; [|reflexivity]. exact (sizes_set_nth_same_size _ j ch (set_pos ch (cp_addr cp)) En eq_refl).
  - destruct (cur s); try reflexivity. unfold sizes. destruct (chunks s) eqn:E; [rewrite E|]; reflexivity.
Qed.

Lemma sizes_log_events s es : sizes (log_events s es) = sizes s.
Proof. unfold log_events. revert s. induction es as [|e es IH]; intros s; [reflexivity|]. cbn [fold_left]. rewrite IH. reflexivity. Qed.

Lemma sizes_add_block s p sz al : sizes (fst (add_block s p sz al)) = sizes s.
Proof. reflexivity. Qed.

Definition op_layout2 (c : cfg) (s : arena) (o : op) : option (Z * Z) :=
  match o with
  | OPrepare _ es ea cap _ => Some (es * cap, ea)
  | _ => op_layout c s o
  end.
Definition op_grant (c : cfg) (s : arena) (o : op) (r : resp) : Prop :=
  match op_layout2 c s o with Some (sz, al) => grant_ok c (sizes s) sz al r | None => True end.

Lemma resp_ok_grant c s size align r : resp_ok c s size align r -> grant_ok c (sizes s) size align r.
Proof.
  unfold resp_ok, grant_ok. destruct r as [[addr g]|]; [|auto]. intros (_ & _ & _ & _ & H & _) n Hn.
  apply H. rewrite prev_size_sizes. exact Hn.
Qed.

(* the second disjunct is reset, which keeps only the last size; the third is drop *)
Definition sizes_after (c : cfg) (layout : option (Z * Z)) (r : resp) (l l' : list Z) : Prop :=
  match layout with Some (sz, al) => grown c sz al r l l' | None => l' = l end \/
  (exists x t, rev l = x :: t /\ l' = [x]) \/ l' = [].

Lemma after_grown c sz al r l l' : grown c sz al r l l' -> sizes_after c (Some (sz, al)) r l l'.
Proof. intros H. left. exact H. Qed.
Lemma after_eq c r l l' : l' = l -> sizes_after c None r l l'.
Proof. intros H. left. exact H. Qed.

Theorem step_sizes_shape c s0 o r : sizes_after c (op_layout2 c s0 o) r (sizes s0) (sizes (fst (step c s0 o r))).
Proof.
  destruct o; cbn [step op_layout2 op_layout]; set (s := tick s0); change (sizes s0) with (sizes s).
  - (* OAlloc *)
    apply after_grown. destruct (negb (is_top s h)); [left; reflexivity|].
    pose proof (raw_alloc_grown c s size align r) as H1.
    destruct (raw_alloc c s size align r) as [s1 [p|e]]; [destruct zeroed|]; exact H1.
  - (* ODealloc *)
    apply after_eq. destruct (find_block s b) as [blk|]; [|reflexivity].
    destruct (negb (is_top s h) || has_wrapper WDealloc ws); [reflexivity|]. exact (sizes_raw_dealloc c (remove_block s b) _ _).
  - (* OGrow *)
    apply after_grown. destruct (find_block s b) as [blk|]; [|left; reflexivity]. destruct (negb (is_top s h)); [left; reflexivity|].
    pose proof (realloc_case_grown _ _ _ _ _ _ _ _ _ _ (raw_grow_case c s (bptr blk) (bsize blk) (balign blk) nsize nalign r)) as H1.
    destruct (raw_grow c s (bptr blk) (bsize blk) (balign blk) nsize nalign r) as [s1 [ro|e]]; [destruct zeroed|]; exact H1.
  - (* OShrink *)
    apply after_grown. destruct (find_block s b) as [blk|]; [|left; reflexivity].
    destruct (negb (is_top s h) && negb (has_wrapper WShrink ws && divides nalign (bptr blk)));
      [destruct (divides nalign (bptr blk)); left; reflexivity|].
    assert (H1 : grown c nsize nalign r (sizes s) (sizes (fst ((if has_wrapper WShrink ws then ws_shrink else raw_shrink)
                   c s (bptr blk) (bsize blk) (balign blk) nsize nalign r))))
      by (destruct (has_wrapper WShrink ws); eapply realloc_case_grown; [apply ws_shrink_case|apply raw_shrink_case]).
    destruct ((if has_wrapper WShrink ws then ws_shrink else raw_shrink) c s (bptr blk) (bsize blk) (balign blk) nsize nalign r)
      as [s1 [ro|e]]; exact H1.
  - (* OFill *) apply after_eq. destruct (find_block s b); reflexivity.
  - (* OCheckpoint *) apply after_eq. reflexivity.
  - (* OResetTo *) apply after_eq. exact (sizes_do_reset_to c (upd_live s _) cp).
  - (* OReset *)
    cbn [cur chunks upd_live]. destruct (cur s); [|left; reflexivity..].
    destruct (rev (chunks s)) as [|lst t] eqn:Er; [left; reflexivity|].
    right; left. exists (csize lst), (map csize t). split; [unfold sizes; rewrite <- map_rev, Er|]; reflexivity.
  - (* OResetToStart *)
    apply after_eq. cbn [cur chunks upd_live]. destruct (cur s); try reflexivity. unfold sizes. destruct (chunks s) eqn:E; [cbn [fst chunks upd_live]; rewrite E|]; reflexivity.
  - (* OReserve *)
    change (cur_chunk s0) with (cur_chunk s). unfold cur_chunk.
    destruct (cur s) as [i| |]; [destruct (nth_error (chunks s) i) as [ch|]|..]; apply after_grown;
      (destruct (negb (is_top s h)); [left; reflexivity|]); try (left; reflexivity).
    + destruct (n <=? _); [left; reflexivity|]. destruct (IMAX <? _); [left; reflexivity|].
      pose proof (grow_arena_grown c s (n - (remaining_in c ch + sumZ (map (capacity c) (chunks_after s)))) 1 r) as H1.
      destruct (grow_arena c s _ 1 r) as [s1 [e|]]; exact H1.
    + destruct (IMAX <? n); [left; reflexivity|].
      pose proof (grow_arena_grown c s n 1 r) as H1. destruct (grow_arena c s n 1 r) as [s1 [e|]]; exact H1.
  - (* OTryErr *)
    apply after_grown. destruct (negb (is_top s h)); [left; reflexivity|].
    assert (H1 : grown c size align r (sizes s) (sizes (fst (if mutable then raw_prepare c s size align r else raw_alloc c s size align r))))
      by (destruct mutable; [apply raw_prepare_grown|apply raw_alloc_grown]).
    destruct (if mutable then raw_prepare c s size align r else raw_alloc c s size align r) as [s1 [p|e]]; [|exact H1].
    cbn [fst]. rewrite sizes_do_reset_to. exact H1.
  - (* OStats *) apply after_eq. destruct (is_top s h); reflexivity.
  - (* OAlignPush *)
    apply after_eq. destruct (malign s <? n); [destruct (cur_chunk s); [exact (sizes_set_cur_pos _ _)|]|]; reflexivity.
  - (* OAlignPop *)
    apply after_eq. destruct (aligns s) as [|inner [|outer rest]]; try reflexivity.
    destruct (realign && (inner <? outer)); [destruct (cur_chunk _); [exact (sizes_set_cur_pos _ _)|]|]; reflexivity.
  - (* OPrepare *)
    apply after_grown. destruct (negb (is_top s h)); [left; reflexivity|]. destruct (IMAX <? es * cap + (ea - 1)); [left; reflexivity|].
    pose proof (raw_prepare_range_grown c s (es * cap) ea r) as H1.
    destruct (raw_prepare_range c s (es * cap) ea r) as [s1 [[st en]|e]]; exact H1.
  - (* OWriteRaw *) apply after_eq. reflexivity.
  - (* OCommit *) apply after_eq. destruct rev, (up c); exact (sizes_set_cur_pos _ _).
  - (* OClaim *) apply after_eq. destruct (is_top s h); reflexivity.
  - (* OUnclaim *) apply after_eq. reflexivity.
  - (* ODrop *) cbn [depth upd_live]. destruct (Nat.eqb (depth s) 0); [right; right|left]; reflexivity.
Qed.

Theorem step_sizes c s0 o r :
  cfg_ok c -> incr (sizes s0) -> op_grant c s0 o r -> incr (sizes (fst (step c s0 o r))).
Proof.
  intros Hc Hi Hg. unfold op_grant in Hg.
  destruct (step_sizes_shape c s0 o r) as [H|[(x & t & Er & ->)| ->]]; [|exact (incr_last_only _ _ _ Hi Er)|exact I].
  destruct (op_layout2 c s0 o) as [[sz al]|]; [exact (grown_incr c sz al r _ _ Hc Hi Hg H)|rewrite H; exact Hi].
Qed.

From BS Require Import ArenaInv2.

Lemma op_resp_ok2_grant c s o r : op_resp_ok2 c s o r -> op_grant c s o r.
Proof.
  unfold op_resp_ok2, op_grant, op_layout2, op_resp_ok.
  destruct o; cbn [op_layout]; try exact (fun _ => I); try apply resp_ok_grant. destruct (cur_chunk s); apply resp_ok_grant.
Qed.

Theorem run_sizes c xs : forall s, cfg_ok c -> incr (sizes s) -> hok c s xs -> incr (sizes (hrun c s xs)).
Proof.
  induction xs as [|x rest IH]; intros s Hc Hi Hok; [exact Hi|].
  destruct Hok as [H1 H2]. cbn [hrun]. apply IH; [exact Hc| |exact H2].
  destruct x as [o r|h cp r r']; cbn [hrun1 hok1] in *.
  - destruct H1 as [_ Hr]. apply step_sizes; [exact Hc|exact Hi|apply op_resp_ok2_grant; exact Hr].
  - apply step_sizes; [exact Hc| |exact I]. apply step_sizes; [exact Hc|exact Hi|exact I].
Qed.

Lemma incr_nth l : incr l -> forall i a b, nth_error l i = Some a -> nth_error l (S i) = Some b -> a < b.
Proof.
  induction l as [|x t IH]; intros Hi i a b Ha Hb; [destruct i; discriminate|].
  cbn [incr] in Hi. destruct Hi as (_ & Hn & Ht). destruct i as [|i].
  - cbn in Ha, Hb. injection Ha as <-. destruct t as [|y t']; [discriminate|]. cbn in Hb. injection Hb as <-. exact Hn.
  - cbn in Ha, Hb. exact (IH Ht i a b Ha Hb).
Qed.

(* the clause of C10: read in list order, each later chunk is strictly larger than its predecessor *)
Theorem chunks_strictly_grow c xs s i a b :
  cfg_ok c -> incr (sizes s) -> hok c s xs ->
  nth_error (chunks (hrun c s xs)) i = Some a -> nth_error (chunks (hrun c s xs)) (S i) = Some b ->
  csize a < csize b.
Proof.
  intros Hc Hi Hok Ha Hb. pose proof (run_sizes c xs s Hc Hi Hok) as Hr.
  apply (incr_nth _ Hr i); unfold sizes; rewrite nth_error_map; [rewrite Ha|rewrite Hb]; reflexivity.
Qed.

Lemma incr_unallocated m : incr (sizes (init_unallocated m)).
Proof. exact I. Qed.

(* a freshly created arena (no chunk, or the one chunk of with_size / with_capacity) qualifies *)
Lemma incr_fresh c s : cfg_ok c -> ginv c s -> (length (chunks s) <= 1)%nat -> incr (sizes s).
Proof.
  intros [Hh _] (Hok & _) Hlen. unfold sizes. destruct (chunks s) as [|ch [|ch2 t]]; [exact I| |cbn in Hlen; lia].
  inversion Hok as [|x xs [Hg _] _]; subst. destruct Hg as (_ & _ & _ & _ & Hhs & _).
  destruct Hh as (_ & _ & _ & _ & H32 & _). cbn. split; [lia|auto].
Qed.
