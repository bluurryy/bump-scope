(* The arena invariant `inv` and its preservation by the operations of step_inv_partial (C01 core;
   the other operations are in ArenaExt.v and ArenaInv2.v; C02, C03, C05, C10, C13 are corollaries
   in their own files).  The slow allocation path is proved once for any per-chunk action
   (fast_or_slow, Section SlowPath), and raw_grow / raw_shrink / ws_shrink share one case analysis
   (realloc_case, realloc_case_inv). *)
From Coq Require Import ZArith List Bool Lia.
From BS Require Import Word BumpSpec ChunkSpec Arena.
Import ListNotations.
Open Scope Z_scope.

Lemma set_nth_length {A} (l : list A) i x : length (set_nth l i x) = length l.
Proof. revert i; induction l as [|h t IH]; intros [|i]; cbn; auto. Qed.

Lemma nth_error_set_nth_eq {A} (l : list A) i x :
  (i < length l)%nat -> nth_error (set_nth l i x) i = Some x.
Proof. revert i; induction l as [|h t IH]; intros [|i] H; cbn in *; try lia; auto. apply IH; lia. Qed.

Lemma nth_error_set_nth_neq {A} (l : list A) i j x :
  i <> j -> nth_error (set_nth l i x) j = nth_error l j.
Proof.
  revert i j; induction l as [|h t IH]; intros [|i] [|j] H; cbn; auto; try congruence.
Qed.

Lemma set_nth_set_nth {A} (l : list A) i x y : set_nth (set_nth l i x) i y = set_nth l i y.
Proof. revert i; induction l as [|a l IH]; intros [|i]; cbn; try reflexivity. f_equal. apply IH. Qed.

Lemma set_nth_same {A} (l : list A) i x : nth_error l i = Some x -> set_nth l i x = l.
Proof. revert i; induction l as [|a l IH]; intros [|i] H; cbn in *; try discriminate; [congruence|]. f_equal. apply IH. exact H. Qed.

Lemma set_nth_app_last {A} (l : list A) x y : set_nth (l ++ [x]) (length l) y = l ++ [y].
Proof. induction l as [|h t IH]; [reflexivity|]. cbn. f_equal. exact IH. Qed.

Lemma nth_error_app_last {A} (l : list A) x : nth_error (l ++ [x]) (length l) = Some x.
Proof. rewrite nth_error_app2 by lia. rewrite Nat.sub_diag. reflexivity. Qed.

Lemma nth_error_some_lt {A} (l : list A) i x : nth_error l i = Some x -> (i < length l)%nat.
Proof. intros H. apply nth_error_Some. congruence. Qed.

Lemma nth_error_ext {A} (l l' : list A) : (forall k, nth_error l k = nth_error l' k) -> l = l'.
Proof.
  revert l'. induction l as [|a l IH]; intros [|b l'] H; try reflexivity; try discriminate (H 0%nat).
  injection (H 0%nat) as ->. f_equal. apply IH. intros k. exact (H (S k)).
Qed.

Lemma Forall_set_nth {A} (P : A -> Prop) l i x : Forall P l -> P x -> Forall P (set_nth l i x).
Proof.
  revert i; induction l as [|h t IH]; intros [|i] Hl Hx; cbn; auto;
    inversion Hl; subst; constructor; auto.
Qed.

Lemma Forall_nth_error {A} (P : A -> Prop) l i x : Forall P l -> nth_error l i = Some x -> P x.
Proof. intros H E. rewrite Forall_forall in H. apply H. eapply nth_error_In; eassumption. Qed.

Lemma Forall_filter {A} (P : A -> Prop) (f : A -> bool) l : Forall P l -> Forall P (filter f l).
Proof. rewrite !Forall_forall. intros H x Hx. apply filter_In in Hx. apply H. tauto. Qed.

Lemma ForallOrdPairs_filter {A} (R : A -> A -> Prop) (f : A -> bool) l :
  ForallOrdPairs R l -> ForallOrdPairs R (filter f l).
Proof.
  induction 1 as [|a l Ha Hl IH]; cbn; [constructor|].
  destruct (f a); [|exact IH]. constructor; [|exact IH].
  rewrite Forall_forall in *. intros x Hx. apply filter_In in Hx. apply Ha. tauto.
Qed.

Lemma NoDup_map_filter {A B} (g : A -> B) (f : A -> bool) l : NoDup (map g l) -> NoDup (map g (filter f l)).
Proof.
  induction l as [|a l IH]; cbn; intros H; [constructor|]. inversion H as [|x xs Hn Hd]; subst.
  destruct (f a); cbn; [constructor|]; auto.
  intros Hin. apply Hn. apply in_map_iff in Hin. destruct Hin as (y & E & Hy).
  apply in_map_iff. exists y. split; [exact E|]. apply filter_In in Hy. tauto.
Qed.

Lemma filter_nil_all {A} (f : A -> bool) l : (forall x, In x l -> f x = false) -> filter f l = [].
Proof.
  induction l as [|a l IH]; intros H; [reflexivity|]. cbn. rewrite (H a (or_introl eq_refl)).
  apply IH. intros x Hx. apply H. right; exact Hx.
Qed.

Lemma Forall2_set_nth {A} (R : A -> A -> Prop) l l' i x y :
  Forall2 R l l' -> nth_error l i = Some x -> R x y -> Forall2 R l (set_nth l' i y).
Proof.
  intros H; revert i; induction H as [|a b l l' Hab Hl IH]; intros [|i] Hn Hr; cbn in *; try discriminate.
  - injection Hn as ->. constructor; assumption.
  - constructor; [assumption|]. apply IH; assumption.
Qed.

Lemma Forall2_nth_error {A} (R : A -> A -> Prop) l l' i x :
  Forall2 R l l' -> nth_error l i = Some x -> exists y, nth_error l' i = Some y /\ R x y.
Proof.
  intros H; revert i; induction H as [|a b l l' Hab Hl IH]; intros [|i] Hn; cbn in *; try discriminate.
  - injection Hn as ->. eauto.
  - apply IH; assumption.
Qed.

Lemma Forall2_nth_error_r {A} (R : A -> A -> Prop) l l' i y :
  Forall2 R l l' -> nth_error l' i = Some y -> exists x, nth_error l i = Some x /\ R x y.
Proof.
  intros H; revert i; induction H as [|a b l l' Hab Hl IH]; intros [|i] Hn; cbn in *; try discriminate.
  - injection Hn as ->. eauto.
  - apply IH; assumption.
Qed.

Lemma Forall2_rev {A B} (R : A -> B -> Prop) l l' : Forall2 R l l' -> Forall2 R (rev l) (rev l').
Proof.
  induction 1 as [|a b l l' Hab Hl IH]; cbn; [constructor|].
  apply Forall2_app; [assumption|constructor; [assumption|constructor]].
Qed.

Lemma Forall2_pointwise {A B} (R : A -> B -> Prop) l l' :
  length l' = length l -> (forall k a b, nth_error l k = Some a -> nth_error l' k = Some b -> R a b) ->
  Forall2 R l l'.
Proof.
  revert l'. induction l as [|a l IH]; intros [|b l'] Hlen H; try discriminate; constructor.
  - exact (H 0%nat a b eq_refl eq_refl).
  - apply IH; [injection Hlen as ->; reflexivity|]. intros k. exact (H (S k)).
Qed.

Definition cfg_ok (c : cfg) : Prop := hdr_ok (hs c) (ha c) /\ 0 <= min_chunk c < W.

Definition chunk_geom (c : cfg) (ch : chunk) : Prop :=
  0 < cbase ch /\ (ha c | cbase ch) /\ (16 | csize ch) /\ (up c = false -> (ha c | csize ch)) /\
  hs c <= csize ch /\ creq ch <= csize ch /\ csize ch <= cgranted ch /\
  cbase ch + cgranted ch < W /\ cgranted ch <= IMAX.

Definition chunk_ok (c : cfg) (ch : chunk) : Prop :=
  chunk_geom c ch /\ content_start c ch <= cpos ch <= content_end c ch.

Section ChunkFacts.
  Variable c : cfg.
  Hypothesis Hc : cfg_ok c.

  Let Hha2 : pow2 (ha c). Proof. unfold cfg_ok, hdr_ok in Hc; tauto. Qed.
  Let Hha16 : 16 <= ha c. Proof. unfold cfg_ok, hdr_ok in Hc; tauto. Qed.
  Let Hhs : (ha c | hs c) /\ 32 <= hs c. Proof. unfold cfg_ok, hdr_ok in Hc; tauto. Qed.

  Lemma ha_div16 : (16 | ha c).
  Proof. apply pow2_divide; [apply pow2_16|assumption|assumption]. Qed.

  Lemma geom_bounds ch : chunk_geom c ch ->
    0 < content_start c ch /\ content_start c ch <= content_end c ch /\ content_end c ch < W /\
    content_end c ch - content_start c ch <= IMAX /\
    (16 | content_start c ch) /\ (16 | content_end c ch) /\
    cbase ch <= content_start c ch /\ content_end c ch <= cbase ch + csize ch.
  Proof.
    intros (Hb0 & Hbd & Hs16 & Hsha & Hhsle & Hreq & Hgr & Hlim & Hgi).
    destruct Hhs as [Hhsd Hhs32]. pose proof ha_div16 as H16.
    assert (Hb16 : (16 | cbase ch)) by (apply Z.divide_trans with (ha c); assumption).
    assert (Hh16 : (16 | hs c)) by (apply Z.divide_trans with (ha c); assumption).
    unfold content_start, content_end. destruct (up c) eqn:Eup.
    - repeat split; try lia; try (apply Z.divide_add_r; assumption).
    - specialize (Hsha eq_refl).
      repeat split; try lia; try assumption.
      apply Z.divide_sub_r; [apply Z.divide_add_r; assumption|assumption].
  Qed.

  Lemma fresh_pos_ok ch : chunk_geom c ch -> chunk_ok c (reset_chunk c ch) /\ (16 | fresh_pos c ch).
  Proof.
    intros Hg. pose proof (geom_bounds ch Hg) as (H0 & Hle & Hlim & Hlim2 & Hs16 & He16 & _).
    unfold reset_chunk, chunk_ok, set_pos, fresh_pos, chunk_geom in *.
    unfold content_start, content_end in *. cbn [cbase csize creq cgranted cpos].
    destruct (up c); (split; [split; [exact Hg|lia]|assumption]).
  Qed.

  Lemma set_pos_ok ch p : chunk_geom c ch -> content_start c ch <= p <= content_end c ch ->
    chunk_ok c (set_pos ch p).
  Proof.
    intros Hg Hp. unfold chunk_ok, set_pos, chunk_geom, content_start, content_end in *.
    cbn [cbase csize creq cgranted cpos]. split; [exact Hg|exact Hp].
  Qed.

  Lemma set_pos_geom ch p : chunk_geom c ch -> chunk_geom c (set_pos ch p).
  Proof. intros Hg. exact Hg. Qed.

  Lemma chunk_alloc_sound m ch size align p ch' :
    chunk_ok c ch -> valid_min_align m -> (m | cpos ch) -> valid_layout size align ->
    chunk_alloc c m ch size align = Some (p, ch') ->
    exists np, ch' = set_pos ch np /\ (align | p) /\ (m | np) /\
      content_start c ch <= np <= content_end c ch /\
      (if up c then cpos ch <= p /\ p + size <= np
       else np = p /\ p + size <= cpos ch).
  Proof.
    intros [Hg Hpos] Hm Hmp Hl H.
    pose proof (geom_bounds ch Hg) as (H0 & Hle & Hlim & Hlim2 & Hs16 & He16 & _).
    pose proof W_val. pose proof IMAX_val. pose proof Hl as (_ & Hs0 & _).
    unfold chunk_alloc in H. destruct (up c) eqn:Eup.
    - destruct (spec_up (cpos ch) (content_end c ch) m size align) as [[q np]|] eqn:E; [|discriminate].
      injection H as <- <-.
      assert (Hreg : regular_up (cpos ch) (content_end c ch) m) by (unfold regular_up; repeat split; try lia; assumption).
      pose proof (spec_up_sound _ _ _ _ _ _ _ Hm Hl Hreg E) as (A1 & A2 & A3 & A4 & A5 & _).
      exists np. repeat split; try assumption; lia.
    - destruct (spec_down (content_start c ch) (cpos ch) m size align) as [q|] eqn:E; [|discriminate].
      injection H as <- <-.
      assert (Hreg : regular_down (content_start c ch) (cpos ch) m) by (unfold regular_down; repeat split; try lia; assumption).
      pose proof (spec_down_sound _ _ _ _ _ _ Hm Hl Hreg E) as (A1 & A2 & A3 & A4).
      exists q. repeat split; try assumption; lia.
  Qed.
End ChunkFacts.

Lemma set_pos_cpos ch : set_pos ch (cpos ch) = ch.
Proof. destruct ch; reflexivity. Qed.

Lemma new_chunk_size_some c prev size align n :
  new_chunk_size c prev size align = Some n ->
  exists hint, n = spec_size_from_hint (up c) (hs c) (ha c) hint /\
    spec_hint (up c) (hs c) (ha c) size align <= hint /\ match prev with Some ps => 2 * ps | None => 0 end <= hint.
Proof.
  unfold new_chunk_size. set (grown := match prev with Some ps => 2 * ps | None => 0 end).
  destruct (W <=? spec_hint _ _ _ _ _); [discriminate|]. destruct (W <=? grown); [discriminate|].
  destruct (W <=? spec_size0 _ _ _); [discriminate|]. destruct (_ <? _); [discriminate|]. intros [= <-].
  eexists. split; [reflexivity|]. lia.
Qed.

Lemma new_chunk_size_facts c prev size align n :
  cfg_ok c -> new_chunk_size c prev size align = Some n ->
  (16 | n) /\ (up c = false -> (ha c | n)) /\ hs c <= n /\ 0 < n.
Proof.
  intros [Hh _] H. destruct (new_chunk_size_some _ _ _ _ _ H) as (hint & -> & _).
  pose proof (size_from_hint_facts (up c) (hs c) (ha c) Hh hint) as (A1 & A2 & _ & A4 & _).
  destruct Hh as (_ & _ & _ & _ & H32 & _). repeat split; try assumption; lia.
Qed.

Lemma make_chunk_ok c n addr g :
  cfg_ok c -> (16 | n) -> (up c = false -> (ha c | n)) -> hs c <= n -> n <= g ->
  0 < addr -> (ha c | addr) -> addr + g < W -> g <= IMAX ->
  let ch := make_chunk c n addr g in
  chunk_ok c ch /\ (16 | cpos ch) /\ cbase ch = addr /\ cgranted ch = g.
Proof.
  intros Hc H16 Hha Hhs Hng Ha0 Had HaW Hgi. cbv zeta.
  pose proof (align_size_between (up c) (hs c) (ha c) (proj1 Hc) n g H16 Hha Hng) as (B1 & B2 & B3 & B4).
  unfold make_chunk.
  set (ch0 := mkChunk addr (spec_align_size (up c) (ha c) g) n g 0).
  assert (Hg : chunk_geom c ch0).
  { unfold chunk_geom, ch0. cbn [cbase csize creq cgranted]. repeat split; try assumption; lia. }
  destruct (fresh_pos_ok c Hc ch0 Hg) as [Hok H16p].
  unfold reset_chunk in Hok. split; [exact Hok|]. split; [exact H16p|]. split; reflexivity.
Qed.

Definition same_geom (a b : chunk) : Prop :=
  cbase a = cbase b /\ csize a = csize b /\ creq a = creq b /\ cgranted a = cgranted b.

Lemma same_geom_refl a : same_geom a a.
Proof. repeat split. Qed.
Lemma same_geom_set_pos a p : same_geom a (set_pos a p).
Proof. repeat split. Qed.
Lemma same_geom_trans a b d : same_geom a b -> same_geom b d -> same_geom a d.
Proof. unfold same_geom. intuition congruence. Qed.

Lemma same_geom_content c a b : same_geom a b ->
  content_start c a = content_start c b /\ content_end c a = content_end c b.
Proof. intros (E1 & E2 & _). unfold content_start, content_end. rewrite E1, E2. split; reflexivity. Qed.

Lemma same_geom_chunk_geom c a b : same_geom a b -> chunk_geom c a -> chunk_geom c b.
Proof. intros (E1 & E2 & E3 & E4). unfold chunk_geom. rewrite E1, E2, E3, E4. tauto. Qed.

Lemma Forall2_same_geom_refl l : Forall2 same_geom l l.
Proof. induction l; constructor; auto using same_geom_refl. Qed.

Definition chunks_disjoint (cs : list chunk) : Prop :=
  forall i j a b, i <> j -> nth_error cs i = Some a -> nth_error cs j = Some b ->
    cbase a + cgranted a <= cbase b \/ cbase b + cgranted b <= cbase a.

Definition ginv (c : cfg) (s : arena) : Prop :=
  Forall (chunk_ok c) (chunks s) /\ chunks_disjoint (chunks s) /\ valid_min_align (malign s) /\
  match cur s with
  | Cur i => exists ch, nth_error (chunks s) i = Some ch /\ (malign s | cpos ch)
  | Unalloc => chunks s = []
  | Claimed => False
  end.

Definition in_chunk (c : cfg) (ch : chunk) (p sz : Z) : Prop :=
  content_start c ch <= p /\ p + sz <= content_end c ch.
Definition alloc_side (c : cfg) (ch : chunk) (p sz : Z) : Prop :=
  0 < sz -> if up c then p + sz <= cpos ch else cpos ch <= p.

Lemma in_chunk_same_geom c a b p sz : same_geom a b -> in_chunk c a p sz -> in_chunk c b p sz.
Proof. intros Hsg H. destruct (same_geom_content c a b Hsg) as [E1 E2]. unfold in_chunk. rewrite <- E1, <- E2. exact H. Qed.

(* where a live block may be: the chunks after the current one hold none *)
Definition placed (c : cfg) (s : arena) (p sz : Z) : Prop :=
  exists k ch, nth_error (chunks s) k = Some ch /\ in_chunk c ch p sz /\
    match cur s with
    | Cur i => (k <= i)%nat /\ (k = i -> alloc_side c ch p sz)
    | _ => False
    end.

Definition block_ok (c : cfg) (s : arena) (b : block) : Prop :=
  0 <= bsize b /\ (balign b | bptr b) /\ placed c s (bptr b) (bsize b).

Definition disjoint_rng (p1 s1 p2 s2 : Z) : Prop :=
  s1 <= 0 \/ s2 <= 0 \/ p1 + s1 <= p2 \/ p2 + s2 <= p1.
Definition disjoint2 (a b : block) : Prop := disjoint_rng (bptr a) (bsize a) (bptr b) (bsize b).

Definition ids_ok (s : arena) : Prop :=
  NoDup (map bid (live s)) /\ Forall (fun b => (bid b < nextid s)%nat) (live s).

Definition inv (c : cfg) (s : arena) : Prop :=
  ginv c s /\ Forall (block_ok c s) (live s) /\ ForallOrdPairs disjoint2 (live s) /\ ids_ok s.

Definition prev_size (s : arena) : option Z :=
  match rev (chunks s) with last :: _ => Some (csize last) | [] => None end.

(* what the base allocator is trusted to guarantee about its answer *)
Definition resp_ok (c : cfg) (s : arena) (size align : Z) (r : resp) : Prop :=
  match r with
  | None => True
  | Some (addr, g) =>
    0 < addr /\ (ha c | addr) /\ addr + g < W /\ g <= IMAX /\
    (forall n, new_chunk_size c (prev_size s) size align = Some n -> n <= g) /\
    (forall ch, In ch (chunks s) -> cbase ch + cgranted ch <= addr \/ addr + g <= cbase ch)
  end.

Definition frame (s s' : arena) : Prop :=
  live s' = live s /\ mem s' = mem s /\ depth s' = depth s /\ aligns s' = aligns s /\
  epoch s' = epoch s /\ nextid s' = nextid s.

(* inv without the alignment of the current position: what holds between the two model steps of a
   scoped_aligned exit (alignment back, then reset to the guard's checkpoint), and all that
   rewinding needs *)
Definition wginv (c : cfg) (s : arena) : Prop :=
  Forall (chunk_ok c) (chunks s) /\ chunks_disjoint (chunks s) /\ valid_min_align (malign s) /\
  match cur s with
  | Cur i => exists ch, nth_error (chunks s) i = Some ch
  | Unalloc => chunks s = []
  | Claimed => False
  end.
Definition winv (c : cfg) (s : arena) : Prop :=
  wginv c s /\ Forall (block_ok c s) (live s) /\ ForallOrdPairs disjoint2 (live s) /\ ids_ok s.

Lemma chunk_range_in_granted c ch p sz :
  cfg_ok c -> chunk_geom c ch -> in_chunk c ch p sz ->
  cbase ch <= p /\ p + sz <= cbase ch + cgranted ch.
Proof.
  intros Hc Hg [H1 H2]. pose proof (geom_bounds c Hc ch Hg) as (_ & _ & _ & _ & _ & _ & B1 & B2).
  destruct Hg as (_ & _ & _ & _ & _ & _ & G & _). lia.
Qed.

Lemma chunks_disjoint_same_geom cs cs' :
  Forall2 same_geom cs cs' -> chunks_disjoint cs -> chunks_disjoint cs'.
Proof.
  intros HF Hd i j a b Hij Ha Hb.
  destruct (Forall2_nth_error_r _ _ _ _ _ HF Ha) as (a0 & Ha0 & (E1 & _ & _ & E4)).
  destruct (Forall2_nth_error_r _ _ _ _ _ HF Hb) as (b0 & Hb0 & (F1 & _ & _ & F4)).
  specialize (Hd i j a0 b0 Hij Ha0 Hb0). rewrite <- E1, <- E4, <- F1, <- F4. exact Hd.
Qed.

Lemma chunks_disjoint_app cs ch :
  chunks_disjoint cs ->
  (forall ch0, In ch0 cs -> cbase ch0 + cgranted ch0 <= cbase ch \/ cbase ch + cgranted ch <= cbase ch0) ->
  chunks_disjoint (cs ++ [ch]).
Proof.
  intros Hd Hnew i j a b Hij Ha Hb.
  destruct (Nat.lt_ge_cases i (length cs)) as [Hi|Hi]; destruct (Nat.lt_ge_cases j (length cs)) as [Hj|Hj].
  - rewrite nth_error_app1 in Ha, Hb by assumption. eapply Hd; eassumption.
  - rewrite nth_error_app1 in Ha by assumption. rewrite nth_error_app2 in Hb by assumption.
    destruct (j - length cs)%nat as [|x] eqn:E; cbn in Hb; [|destruct x; discriminate].
    injection Hb as <-. apply Hnew. eapply nth_error_In; eassumption.
  - rewrite nth_error_app1 in Hb by assumption. rewrite nth_error_app2 in Ha by assumption.
    destruct (i - length cs)%nat as [|x] eqn:E; cbn in Ha; [|destruct x; discriminate].
    injection Ha as <-. specialize (Hnew b ltac:(eapply nth_error_In; eassumption)). lia.
  - rewrite nth_error_app2 in Ha, Hb by assumption.
    destruct (i - length cs)%nat as [|x] eqn:E; cbn in Ha; [|destruct x; discriminate].
    destruct (j - length cs)%nat as [|y] eqn:F; cbn in Hb; [|destruct y; discriminate]. lia.
Qed.

Lemma chunks_disjoint_nil : chunks_disjoint [].
Proof. intros [|i] j a b _ Ha; discriminate. Qed.

Lemma placed_other_chunk_disjoint c cs i j a b p1 s1 p2 s2 :
  cfg_ok c -> Forall (chunk_ok c) cs -> chunks_disjoint cs -> i <> j ->
  nth_error cs i = Some a -> nth_error cs j = Some b ->
  in_chunk c a p1 s1 -> in_chunk c b p2 s2 ->
  disjoint_rng p1 s1 p2 s2.
Proof.
  intros Hc Hok Hd Hij Ha Hb I1 I2.
  pose proof (Forall_nth_error _ _ _ _ Hok Ha) as [Ga _].
  pose proof (Forall_nth_error _ _ _ _ Hok Hb) as [Gb _].
  pose proof (chunk_range_in_granted c a p1 s1 Hc Ga I1).
  pose proof (chunk_range_in_granted c b p2 s2 Hc Gb I2).
  specialize (Hd i j a b Hij Ha Hb). unfold disjoint_rng. lia.
Qed.

Lemma prev_size_same_geom s s' :
  Forall2 same_geom (chunks s) (chunks s') -> prev_size s' = prev_size s.
Proof.
  intros H. apply Forall2_rev in H. unfold prev_size.
  destruct H as [|a b l l' (_ & E & _) _]; [reflexivity|]. rewrite E. reflexivity.
Qed.

Lemma resp_ok_same_geom c s s' size align r :
  Forall2 same_geom (chunks s) (chunks s') -> resp_ok c s size align r -> resp_ok c s' size align r.
Proof.
  intros HF Hr. destruct r as [[addr g]|]; [|exact I].
  destruct Hr as (R1 & R2 & R3 & R4 & R5 & R6). repeat split; try assumption.
  - intros n. rewrite (prev_size_same_geom _ _ HF). apply R5.
  - intros ch Hin. apply In_nth_error in Hin. destruct Hin as [k Hk].
    destruct (Forall2_nth_error_r _ _ _ _ _ HF Hk) as (ch0 & Hk0 & (E1 & _ & _ & E4)).
    rewrite <- E1, <- E4. apply R6. eapply nth_error_In; eassumption.
Qed.

Lemma resp_ok_ext c s s' size align r :
  chunks s' = chunks s -> resp_ok c s size align r -> resp_ok c s' size align r.
Proof.
  intros E H. eapply resp_ok_same_geom; [|exact H]. rewrite E. apply Forall2_same_geom_refl.
Qed.

Lemma frame_refl s : frame s s.
Proof. repeat split. Qed.

Lemma frame_malign s s' : frame s s' -> malign s' = malign s.
Proof. intros (_ & _ & _ & E & _). unfold malign. rewrite E. reflexivity. Qed.

Lemma inv_live_block c s b : inv c s -> In b (live s) -> block_ok c s b.
Proof. intros (_ & Hb & _) Hin. rewrite Forall_forall in Hb. exact (Hb b Hin). Qed.

Lemma ginv_intro c s i ch :
  Forall (chunk_ok c) (chunks s) -> chunks_disjoint (chunks s) -> valid_min_align (malign s) ->
  cur s = Cur i -> nth_error (chunks s) i = Some ch -> (malign s | cpos ch) -> ginv c s.
Proof.
  intros Hok Hd Hm Ec En Hmp. unfold ginv. rewrite Ec.
  exact (conj Hok (conj Hd (conj Hm (ex_intro _ ch (conj En Hmp))))).
Qed.

Lemma ginv_no_chunks c s : valid_min_align (malign s) -> chunks s = [] -> cur s = Unalloc -> ginv c s.
Proof.
  intros Hm Ech Ec. unfold ginv. rewrite Ech, Ec.
  exact (conj (Forall_nil _) (conj chunks_disjoint_nil (conj Hm eq_refl))).
Qed.

Lemma ginv_single c s ch :
  chunks s = [ch] -> cur s = Cur 0%nat -> chunk_ok c ch -> valid_min_align (malign s) -> (malign s | cpos ch) -> ginv c s.
Proof.
  intros Ech Ec Hok Hm Hmp. apply (ginv_intro c s 0%nat ch); rewrite ?Ech; try assumption; try reflexivity.
  - constructor; [exact Hok|constructor].
  - apply (chunks_disjoint_app []); [exact chunks_disjoint_nil|intros ch0 []].
Qed.

Lemma ginv_cur c s i : ginv c s -> cur s = Cur i ->
  exists ch, nth_error (chunks s) i = Some ch /\ chunk_ok c ch /\ (malign s | cpos ch).
Proof.
  intros (Hok & _ & _ & Hcur) Ec. rewrite Ec in Hcur. destruct Hcur as (ch & En & Hmp).
  exists ch. split; [exact En|]. split; [exact (Forall_nth_error _ _ _ _ Hok En)|exact Hmp].
Qed.

Lemma ginv_cur_chunk c s i ch : ginv c s -> cur s = Cur i -> nth_error (chunks s) i = Some ch ->
  chunk_ok c ch /\ (malign s | cpos ch).
Proof.
  intros Hg Ec En. destruct (ginv_cur c s i Hg Ec) as (ch' & En' & H). rewrite En in En'. injection En' as <-. exact H.
Qed.

Lemma ginv_cur_lt c s j : ginv c s -> cur s = Cur j -> (j < length (chunks s))%nat.
Proof. intros Hg Ec. destruct (ginv_cur c s j Hg Ec) as (ch & En & _). exact (nth_error_some_lt _ _ _ En). Qed.

Lemma ginv_size16 c s x : ginv c s -> In x (chunks s) -> (16 | csize x).
Proof. intros (Hall & _) Hx. rewrite Forall_forall in Hall. destruct (Hall x Hx) as ((_ & _ & H & _) & _). exact H. Qed.

Lemma min_align_divides m x : valid_min_align m -> (16 | x) -> (m | x).
Proof. intros Hm H. exact (Z.divide_trans _ _ _ (min_align_div16 m Hm) H). Qed.

Lemma ginv_ext c s s' :
  chunks s' = chunks s -> cur s' = cur s -> aligns s' = aligns s -> ginv c s -> ginv c s'.
Proof. intros E1 E2 E3 H. unfold ginv, malign in *. rewrite E1, E2, E3. exact H. Qed.

Lemma blocks_ok_ext c s s' l :
  chunks s' = chunks s -> cur s' = cur s -> Forall (block_ok c s) l -> Forall (block_ok c s') l.
Proof. intros E1 E2. apply Forall_impl. unfold block_ok, placed. rewrite E1, E2. auto. Qed.

Lemma inv_ext c s s' :
  chunks s' = chunks s -> cur s' = cur s -> aligns s' = aligns s -> live s' = live s ->
  nextid s' = nextid s -> inv c s -> inv c s'.
Proof.
  intros E1 E2 E3 E4 E5 (Hg & Hb & Hd & Hi). split; [eapply ginv_ext; eassumption|].
  rewrite E4. split; [exact (blocks_ok_ext c s s' _ E1 E2 Hb)|].
  split; [exact Hd|]. unfold ids_ok in *. rewrite E4, E5. exact Hi.
Qed.

Lemma winv_ext c s s' :
  chunks s' = chunks s -> cur s' = cur s -> live s' = live s -> nextid s' = nextid s ->
  valid_min_align (malign s') -> winv c s -> winv c s'.
Proof.
  intros E1 E2 E4 E5 Hm ((Hok & Hd & _ & Hcur) & Hb & Hdis & Hi). unfold winv, wginv, ids_ok in *.
  rewrite E1, E2, E4, E5. split; [exact (conj Hok (conj Hd (conj Hm Hcur)))|].
  split; [exact (blocks_ok_ext c s s' _ E1 E2 Hb)|exact (conj Hdis Hi)].
Qed.

Lemma inv_tick c s : inv c s -> inv c (tick s).
Proof. apply inv_ext; reflexivity. Qed.

Lemma inv_winv c s : inv c s -> winv c s.
Proof.
  intros ((Hok & Hd & Hm & Hcur) & Hrest). split; [|exact Hrest].
  split; [exact Hok|]. split; [exact Hd|]. split; [exact Hm|].
  destruct (cur s); [destruct Hcur as (ch & En & _); exists ch; exact En|exact Hcur|exact Hcur].
Qed.

Lemma winv_inv c s : winv c s -> (forall ch, cur_chunk s = Some ch -> (malign s | cpos ch)) -> inv c s.
Proof.
  intros ((Hok & Hd & Hm & Hcur) & Hrest) Hal. split; [|exact Hrest]. unfold cur_chunk in Hal.
  destruct (cur s) as [i| |] eqn:Ec; [|unfold ginv; rewrite Ec; exact (conj Hok (conj Hd (conj Hm Hcur)))|contradiction].
  destruct Hcur as (ch & En). exact (ginv_intro c s i ch Hok Hd Hm Ec En (Hal ch En)).
Qed.

Lemma placed_mono c s s' i j p sz :
  cur s = Cur i -> cur s' = Cur j -> (i <= j)%nat ->
  (forall k, (k <= i)%nat -> nth_error (chunks s') k = nth_error (chunks s) k) ->
  placed c s p sz -> placed c s' p sz.
Proof.
  intros Ec Ec' Hij Hsame (k & chk & Hk & Hin & Hs). rewrite Ec in Hs. destruct Hs as [Hki Hks].
  exists k, chk. rewrite Ec', (Hsame k Hki). split; [exact Hk|]. split; [exact Hin|].
  split; [lia|]. intros ->. apply Hks. lia.
Qed.

Lemma ginv_replace c s s' j ch ch1 :
  Forall (chunk_ok c) (chunks s) -> chunks_disjoint (chunks s) -> valid_min_align (malign s) ->
  nth_error (chunks s) j = Some ch -> chunk_ok c ch1 -> same_geom ch ch1 -> (malign s | cpos ch1) ->
  chunks s' = set_nth (chunks s) j ch1 -> cur s' = Cur j -> aligns s' = aligns s -> ginv c s'.
Proof.
  intros Hok Hd Hm En H1 H2 H3 Ech Ecu Eal.
  apply (ginv_intro c s' j ch1); unfold malign in *; rewrite ?Ech, ?Eal; try assumption.
  - apply Forall_set_nth; assumption.
  - eapply chunks_disjoint_same_geom; [|exact Hd]. eapply Forall2_set_nth; [apply Forall2_same_geom_refl|exact En|exact H2].
  - apply nth_error_set_nth_eq. eapply nth_error_some_lt; exact En.
Qed.

(* what an operation that touches only chunks and position must leave for the invariant to carry over *)
Definition transfer (c : cfg) (s s' : arena) : Prop :=
  frame s s' /\ ginv c s' /\ forall q sz, 0 <= sz -> placed c s q sz -> placed c s' q sz.

Lemma inv_transfer c s s' : inv c s -> transfer c s s' -> inv c s'.
Proof.
  intros (Hg & Hb & Hd & Hi) ((F1 & F2 & F3 & F4 & F5 & F6) & Hg' & Hpl). split; [exact Hg'|]. rewrite F1. split.
  - rewrite Forall_forall in *. intros b Hin. destruct (Hb b Hin) as (B1 & B2 & B3).
    split; [exact B1|]. split; [exact B2|]. apply Hpl; assumption.
  - split; [exact Hd|]. unfold ids_ok in *. rewrite F1, F6. exact Hi.
Qed.

(* Copying and zero-filling write memory only, and inv sees neither memory, depth nor ledger. *)
Definition same_shape (s s' : arena) : Prop :=
  chunks s' = chunks s /\ cur s' = cur s /\ aligns s' = aligns s /\ live s' = live s /\
  nextid s' = nextid s /\ epoch s' = epoch s.

Lemma same_shape_refl s : same_shape s s.
Proof. repeat split. Qed.

Lemma same_shape_upd_mem s m : same_shape s (upd_mem s m).
Proof. repeat split. Qed.

Lemma zero_fill_fields s a n :
  chunks (zero_fill s a n) = chunks s /\ cur (zero_fill s a n) = cur s /\ aligns (zero_fill s a n) = aligns s /\
  live (zero_fill s a n) = live s /\ nextid (zero_fill s a n) = nextid s.
Proof. repeat split. Qed.

Lemma inv_same_shape c s s' : same_shape s s' -> inv c s -> inv c s'.
Proof. intros (E1 & E2 & E3 & E4 & E5 & _). apply inv_ext; assumption. Qed.

Lemma same_shape_remove_block s s' b : same_shape s s' -> same_shape (remove_block s b) (remove_block s' b).
Proof.
  intros (E1 & E2 & E3 & E4 & E5 & E6). unfold remove_block. rewrite E4. repeat split; assumption.
Qed.

Lemma same_shape_add_block s s' p n al :
  same_shape s s' -> same_shape (fst (add_block s p n al)) (fst (add_block s' p n al)).
Proof.
  intros (E1 & E2 & E3 & E4 & E5 & E6). unfold same_shape, add_block.
  cbn [fst chunks cur aligns live nextid epoch bump_id upd_live]. rewrite E4, E5, E6. repeat split; assumption.
Qed.

Lemma log_events_fields s es :
  chunks (log_events s es) = chunks s /\ cur (log_events s es) = cur s /\
  aligns (log_events s es) = aligns s /\ live (log_events s es) = live s /\
  nextid (log_events s es) = nextid s /\ depth (log_events s es) = depth s /\
  mem (log_events s es) = mem s /\ epoch (log_events s es) = epoch s.
Proof.
  revert s. induction es as [|e es IH]; intros s; [repeat split|].
  unfold log_events in *. cbn [fold_left]. destruct (IH (log_event s e)) as (A1 & A2 & A3 & A4 & A5 & A6 & A7 & A8).
  rewrite A1, A2, A3, A4, A5, A6, A7, A8. repeat split.
Qed.

Lemma disjoint_rng_sym p1 s1 p2 s2 : disjoint_rng p1 s1 p2 s2 -> disjoint_rng p2 s2 p1 s1.
Proof. unfold disjoint_rng. lia. Qed.

Lemma In_ForallOrdPairs_disjoint l a b :
  ForallOrdPairs disjoint2 l -> In a l -> In b l -> bid a <> bid b -> disjoint2 a b.
Proof.
  intros Hl Ha Hb Hne.
  destruct (ForallOrdPairs_In Hl a b Ha Hb) as [->|[H|H]]; [congruence|exact H|exact (disjoint_rng_sym _ _ _ _ H)].
Qed.

Lemma find_block_spec s id blk : find_block s id = Some blk -> In blk (live s) /\ bid blk = id.
Proof.
  unfold find_block. intros H. apply find_some in H. destruct H as [H1 H2].
  split; [exact H1|]. apply Nat.eqb_eq. exact H2.
Qed.

Lemma In_remove_block s id b : In b (live (remove_block s id)) <-> In b (live s) /\ bid b <> id.
Proof.
  unfold remove_block. cbn [live upd_live]. rewrite filter_In, negb_true_iff, Nat.eqb_neq. reflexivity.
Qed.

Lemma ids_ok_filter s f : ids_ok s -> ids_ok (upd_live s (filter f (live s))).
Proof.
  intros [H1 H2]. unfold ids_ok. cbn [live upd_live nextid]. split.
  - apply NoDup_map_filter. exact H1.
  - apply Forall_filter. exact H2.
Qed.

Lemma inv_filter c s f : inv c s -> inv c (upd_live s (filter f (live s))).
Proof.
  intros (Hg & Hb & Hd & Hi). split; [exact Hg|]. split.
  - cbn [live upd_live]. apply Forall_filter. exact Hb.
  - split; [cbn [live upd_live]; apply ForallOrdPairs_filter; exact Hd|apply ids_ok_filter; exact Hi].
Qed.

Lemma winv_filter c s f : winv c s -> winv c (upd_live s (filter f (live s))).
Proof.
  intros (Hg & Hb & Hd & Hi). split; [exact Hg|]. cbn [live upd_live].
  split; [apply Forall_filter; exact Hb|]. split; [apply ForallOrdPairs_filter; exact Hd|apply ids_ok_filter; exact Hi].
Qed.

Lemma inv_push_block c s blk :
  inv c s -> 0 <= bsize blk -> (balign blk | bptr blk) -> placed c s (bptr blk) (bsize blk) ->
  (forall b, In b (live s) -> disjoint_rng (bptr b) (bsize b) (bptr blk) (bsize blk)) ->
  bid blk = nextid s ->
  inv c (bump_id (upd_live s (blk :: live s))).
Proof.
  intros (Hg & Hb & Hd & [Hn Hlt]) Hsz Hal Hpl Hdis Hid.
  split; [exact Hg|]. split.
  - cbn [live bump_id upd_live]. constructor; [|exact Hb]. repeat split; assumption.
  - split.
    + cbn [live bump_id upd_live]. constructor; [|exact Hd].
      rewrite Forall_forall. intros b Hin. unfold disjoint2. apply disjoint_rng_sym. apply Hdis. exact Hin.
    + unfold ids_ok. cbn [live bump_id upd_live nextid map]. split.
      * constructor; [|exact Hn]. intros Hin. apply in_map_iff in Hin. destruct Hin as (b & E & Hb').
        rewrite Forall_forall in Hlt. specialize (Hlt b Hb'). lia.
      * constructor; [lia|]. rewrite Forall_forall in *. intros b Hb'. specialize (Hlt b Hb'). lia.
Qed.

Lemma inv_add_block c s p sz al :
  inv c s -> 0 <= sz -> (al | p) -> placed c s p sz ->
  (forall b, In b (live s) -> disjoint_rng (bptr b) (bsize b) p sz) ->
  inv c (fst (add_block s p sz al)).
Proof.
  intros Hinv Hsz Hal Hpl Hdis.
  apply (inv_push_block c s (mkBlock (nextid s) p sz al (epoch s))); try assumption. reflexivity.
Qed.

Lemma remove_block_facts c s id blk :
  inv c s -> find_block s id = Some blk ->
  inv c (remove_block s id) /\ 0 <= bsize blk /\ (balign blk | bptr blk) /\
  placed c (remove_block s id) (bptr blk) (bsize blk) /\
  (forall b, In b (live (remove_block s id)) -> disjoint_rng (bptr b) (bsize b) (bptr blk) (bsize blk)).
Proof.
  intros Hinv Hf. destruct (find_block_spec _ _ _ Hf) as [Hin Hid].
  split; [apply inv_filter; exact Hinv|].
  destruct (inv_live_block c s blk Hinv Hin) as (B1 & B2 & B3).
  split; [exact B1|]. split; [exact B2|]. split; [exact B3|].
  intros b Hb'. apply In_remove_block in Hb'. destruct Hb' as [Hbin Hne].
  apply (In_ForallOrdPairs_disjoint _ b blk (proj1 (proj2 (proj2 Hinv))) Hbin Hin). congruence.
Qed.

Lemma inv_no_live c s : ginv c s -> live s = [] -> inv c s.
Proof. intros Hg E. split; [exact Hg|]. unfold ids_ok. rewrite E. repeat constructor. Qed.

Lemma inv_clear_live c s : inv c s -> inv c (upd_live s []).
Proof. intros (Hg & _). apply inv_no_live; [exact Hg|reflexivity]. Qed.

Lemma inv_no_live_unalloc c s : inv c s -> (forall i, cur s <> Cur i) -> live s = [].
Proof.
  intros (_ & Hb & _) Hn. destruct (live s) as [|b l]; [reflexivity|exfalso].
  inversion Hb as [|x xs (_ & _ & (k & chk & _ & _ & Hs)) _]; subst.
  destruct (cur s) as [i| |]; [apply (Hn i); reflexivity|exact Hs|exact Hs].
Qed.

Lemma cur_chunk_spec s ch : cur_chunk s = Some ch -> exists i, cur s = Cur i /\ nth_error (chunks s) i = Some ch.
Proof. unfold cur_chunk. destruct (cur s) as [i| |]; try discriminate. intros H. exists i. split; [reflexivity|exact H]. Qed.

Lemma is_last_spec c s p sz :
  is_last c s p sz = true ->
  exists ch, cur_chunk s = Some ch /\ (if up c then p + sz = cpos ch else p = cpos ch).
Proof.
  unfold is_last. destruct (cur_chunk s) as [ch|]; [|discriminate]. intros H.
  exists ch. split; [reflexivity|]. destruct (up c); apply Z.eqb_eq; exact H.
Qed.

Lemma set_cur_pos_only_chunks s p : set_cur_pos s p = upd_chunks s (chunks (set_cur_pos s p)).
Proof.
  unfold set_cur_pos. destruct (cur s) as [i| |]; [destruct (nth_error (chunks s) i)|..]; destruct s; reflexivity.
Qed.

Lemma set_cur_pos_frame s p : frame s (set_cur_pos s p).
Proof. rewrite set_cur_pos_only_chunks. repeat split. Qed.

Lemma set_cur_pos_mem s p : mem (set_cur_pos s p) = mem s.
Proof. apply set_cur_pos_frame. Qed.

Lemma set_cur_pos_aligns s p : aligns (set_cur_pos s p) = aligns s.
Proof. apply set_cur_pos_frame. Qed.

Lemma set_cur_pos_fields s i ch p :
  cur s = Cur i -> nth_error (chunks s) i = Some ch ->
  chunks (set_cur_pos s p) = set_nth (chunks s) i (set_pos ch p) /\ cur (set_cur_pos s p) = cur s.
Proof. intros Ec En. unfold set_cur_pos. rewrite Ec, En. split; [reflexivity|exact Ec]. Qed.

Lemma set_cur_pos_commutes (g : arena -> arena) s p :
  (forall t, cur (g t) = cur t /\ chunks (g t) = chunks t) ->
  (forall t cs, g (upd_chunks t cs) = upd_chunks (g t) cs) ->
  set_cur_pos (g s) p = g (set_cur_pos s p).
Proof.
  intros Hg Hu. unfold set_cur_pos. destruct (Hg s) as [-> ->].
  destruct (cur s) as [i| |]; [destruct (nth_error (chunks s) i); [symmetry; apply Hu|]|..]; reflexivity.
Qed.

Lemma set_cur_pos_same s ch : cur_chunk s = Some ch -> set_cur_pos s (cpos ch) = s.
Proof.
  intros H. destruct (cur_chunk_spec s ch H) as (i & Ec & En). unfold set_cur_pos.
  rewrite Ec, En, set_pos_cpos, (set_nth_same _ _ _ En). destruct s; reflexivity.
Qed.

Lemma set_cur_pos_twice s p q : set_cur_pos (set_cur_pos s p) q = set_cur_pos s q.
Proof.
  destruct (cur_chunk s) as [ch|] eqn:E.
  - destruct (cur_chunk_spec s ch E) as (i & Ec & En).
    destruct (set_cur_pos_fields s i ch p Ec En) as [G1 G2].
    unfold set_cur_pos at 1. rewrite G2, Ec, G1, nth_error_set_nth_eq by (eapply nth_error_some_lt; exact En).
    rewrite set_nth_set_nth. unfold set_cur_pos. rewrite Ec, En. reflexivity.
  - assert (H : forall x, set_cur_pos s x = s).
    { intros x. unfold set_cur_pos. unfold cur_chunk in E. destruct (cur s); [rewrite E|..]; reflexivity. }
    rewrite !H. reflexivity.
Qed.

Lemma set_cur_pos_remove_block s b p : set_cur_pos (remove_block s b) p = remove_block (set_cur_pos s p) b.
Proof. apply (set_cur_pos_commutes (fun t => remove_block t b)); [split|]; reflexivity. Qed.

Lemma set_cur_pos_upd_mem s m p : set_cur_pos (upd_mem s m) p = upd_mem (set_cur_pos s p) m.
Proof. apply (set_cur_pos_commutes (fun t => upd_mem t m)); [split|]; reflexivity. Qed.

Lemma set_cur_pos_upd_aligns s l p : set_cur_pos (upd_aligns s l) p = upd_aligns (set_cur_pos s p) l.
Proof. apply (set_cur_pos_commutes (fun t => upd_aligns t l)); [split|]; reflexivity. Qed.

Lemma upd_mem_same s : upd_mem s (mem s) = s.
Proof. destruct s; reflexivity. Qed.

Lemma cur_chunk_set_cur_pos s ch p :
  cur_chunk s = Some ch -> cur_chunk (set_cur_pos s p) = Some (set_pos ch p).
Proof.
  intros Ecc. destruct (cur_chunk_spec s ch Ecc) as (i & Ec & En).
  destruct (set_cur_pos_fields s i ch p Ec En) as [G1 G2]. unfold cur_chunk. rewrite G2, Ec, G1.
  apply nth_error_set_nth_eq. eapply nth_error_some_lt; exact En.
Qed.

Lemma dealloc_assume_last_set c s p sz ch :
  cur_chunk s = Some ch -> exists p1, dealloc_assume_last c s p sz = set_cur_pos s p1.
Proof.
  intros H. unfold dealloc_assume_last. destruct (negb (deallocates c)); [|destruct (up c); eexists; reflexivity].
  exists (cpos ch). symmetry. apply set_cur_pos_same. exact H.
Qed.

Lemma dealloc_assume_last_remove_block c s b p sz :
  dealloc_assume_last c (remove_block s b) p sz = remove_block (dealloc_assume_last c s p sz) b.
Proof.
  unfold dealloc_assume_last. destruct (negb (deallocates c)); [reflexivity|].
  destruct (up c); apply set_cur_pos_remove_block.
Qed.

Lemma chunk_alloc_set_pos c m ch size align p ch1 :
  chunk_alloc c m ch size align = Some (p, ch1) -> ch1 = set_pos ch (cpos ch1).
Proof.
  unfold chunk_alloc. destruct (up c).
  - destruct (spec_up _ _ _ _ _) as [[q np]|]; [|discriminate]. intros [= _ <-]. reflexivity.
  - destruct (spec_down _ _ _ _ _) as [q|]; [|discriminate]. intros [= _ <-]. reflexivity.
Qed.

Lemma chunk_alloc_cur c m s ch size align p ch1 i :
  cur s = Cur i -> nth_error (chunks s) i = Some ch -> chunk_alloc c m ch size align = Some (p, ch1) ->
  upd_chunks s (set_nth (chunks s) i ch1) = set_cur_pos s (cpos ch1).
Proof.
  intros Ec En H. unfold set_cur_pos. rewrite Ec, En, <- (chunk_alloc_set_pos _ _ _ _ _ _ _ H). reflexivity.
Qed.

(* placed, if chunk j of cs were current with its position at addr: what a checkpoint (j, addr)
   asks of the blocks that survive a reset to it *)
Definition placed_at (c : cfg) (cs : list chunk) (j : nat) (addr p sz : Z) : Prop :=
  exists k chk, nth_error cs k = Some chk /\ in_chunk c chk p sz /\ (k <= j)%nat /\
    (k = j -> 0 < sz -> if up c then p + sz <= addr else addr <= p).

Lemma placed_placed_at c s cs' i ch ch1 p sz :
  cur s = Cur i -> nth_error (chunks s) i = Some ch ->
  (forall k, (k < i)%nat -> nth_error cs' k = nth_error (chunks s) k) ->
  nth_error cs' i = Some ch1 -> same_geom ch ch1 ->
  placed c s p sz -> placed_at c cs' i (cpos ch) p sz.
Proof.
  intros Ec En Hpre En1 Hsg (k & chk & Hk & Hin & Hs). rewrite Ec in Hs. destruct Hs as [Hki Hks].
  destruct (Nat.eq_dec k i) as [->|Hne].
  - rewrite En in Hk. injection Hk as <-. exists i, ch1. split; [exact En1|].
    split; [exact (in_chunk_same_geom c _ _ _ _ Hsg Hin)|]. split; [lia|]. intros _. exact (Hks eq_refl).
  - exists k, chk. rewrite Hpre by lia. split; [exact Hk|]. split; [exact Hin|]. split; [exact Hki|].
    intros E. destruct (Hne E).
Qed.

Lemma placed_at_rewound c s j ch addr p sz :
  nth_error (chunks s) j = Some ch -> placed_at c (chunks s) j addr p sz ->
  placed c (upd_cur (upd_chunks s (set_nth (chunks s) j (set_pos ch addr))) (Cur j)) p sz.
Proof.
  intros En (k & chk & Hk & Hinc & Hkj & Hside). unfold placed. cbn [chunks cur upd_cur upd_chunks].
  destruct (Nat.eq_dec k j) as [->|Hne].
  - rewrite En in Hk. injection Hk as <-. exists j, (set_pos ch addr).
    split; [apply nth_error_set_nth_eq; exact (nth_error_some_lt _ _ _ En)|]. split; [exact Hinc|]. split; [lia|].
    intros _. exact (Hside eq_refl).
  - exists k, chk. split; [rewrite nth_error_set_nth_neq by congruence; exact Hk|]. split; [exact Hinc|].
    split; [exact Hkj|intros E; congruence].
Qed.

Lemma inv_rewind c s j ch np :
  winv c s -> nth_error (chunks s) j = Some ch ->
  content_start c ch <= np <= content_end c ch -> (malign s | np) ->
  (forall b, In b (live s) -> placed_at c (chunks s) j np (bptr b) (bsize b)) ->
  inv c (upd_cur (upd_chunks s (set_nth (chunks s) j (set_pos ch np))) (Cur j)).
Proof.
  intros ((Hok & Hd & Hm & _) & Hb & Hdis & Hids) En Hnp Hmnp Hblocks.
  pose proof (Forall_nth_error _ _ _ _ Hok En) as [Hgeo _].
  split.
  { eapply (ginv_replace c s _ j ch _ Hok Hd Hm En (set_pos_ok c ch np Hgeo Hnp) (same_geom_set_pos _ _) Hmnp); reflexivity. }
  split; [|split; [exact Hdis|exact Hids]].
  cbn [live upd_cur upd_chunks]. rewrite Forall_forall in *. intros b Hin.
  destruct (Hb b Hin) as (B1 & B2 & _). split; [exact B1|]. split; [exact B2|].
  exact (placed_at_rewound c s j ch np _ _ En (Hblocks b Hin)).
Qed.

Lemma set_cur_pos_inv c s i ch np :
  inv c s -> cur s = Cur i -> nth_error (chunks s) i = Some ch ->
  content_start c ch <= np <= content_end c ch -> (malign s | np) ->
  (forall b, In b (live s) -> 0 < bsize b -> in_chunk c ch (bptr b) (bsize b) ->
     if up c then bptr b + bsize b <= np else np <= bptr b) ->
  inv c (set_cur_pos s np).
Proof.
  intros Hinv Ec En Hnp Hmnp Hside.
  apply (inv_ext c (upd_cur (upd_chunks s (set_nth (chunks s) i (set_pos ch np))) (Cur i)));
    try (unfold set_cur_pos; rewrite Ec, En; reflexivity).
  { unfold set_cur_pos. rewrite Ec, En. exact Ec. }
  apply inv_rewind; try assumption; [apply inv_winv; exact Hinv|].
  intros b Hin. destruct (inv_live_block c s b Hinv Hin) as (_ & _ & (k & chk & Hk & Hinc & Hs)).
  rewrite Ec in Hs. destruct Hs as [Hki _].
  exists k, chk. split; [exact Hk|]. split; [exact Hinc|]. split; [exact Hki|].
  intros -> Hpos. rewrite En in Hk. injection Hk as <-. exact (Hside b Hin Hpos Hinc).
Qed.

Lemma is_last_in_cur c s i ch p sz :
  cfg_ok c -> ginv c s -> cur s = Cur i -> nth_error (chunks s) i = Some ch ->
  0 <= sz -> placed c s p sz ->
  (if up c then p + sz = cpos ch else p = cpos ch) ->
  in_chunk c ch p sz.
Proof.
  intros Hc (Hok & Hd & Hm & Hcur) Ec En Hsz (k & chk & Hk & Hin & Hs) Hlast.
  rewrite Ec in Hs. destruct Hs as [Hki _].
  destruct (Nat.eq_dec k i) as [->|Hne]; [rewrite En in Hk; injection Hk as <-; exact Hin|exfalso].
  pose proof (Forall_nth_error _ _ _ _ Hok En) as [Gi Pi].
  pose proof (Forall_nth_error _ _ _ _ Hok Hk) as [Gk _].
  pose proof (geom_bounds c Hc ch Gi) as (_ & _ & _ & _ & _ & _ & Bi1 & Bi2).
  pose proof (geom_bounds c Hc chk Gk) as (_ & _ & _ & _ & _ & _ & Bk1 & Bk2).
  specialize (Hd k i chk ch Hne Hk En).
  destruct Gi as (_ & _ & _ & _ & Hhsi & _ & Gri & _). destruct Gk as (_ & _ & _ & _ & Hhsk & _ & Grk & _).
  destruct Hin as [I1 I2]. destruct Hc as [(_ & _ & _ & _ & H32 & _) _].
  unfold content_start, content_end in *. destruct (up c); lia.
Qed.

Lemma live_block_vs_cur c s i ch b :
  cfg_ok c -> inv c s -> cur s = Cur i -> nth_error (chunks s) i = Some ch -> In b (live s) -> 0 < bsize b ->
  (if up c then bptr b + bsize b <= cpos ch else cpos ch <= bptr b) \/
  (forall p sz, in_chunk c ch p sz -> disjoint_rng (bptr b) (bsize b) p sz).
Proof.
  intros Hc Hinv Ec En Hbin Hpos. destruct (inv_live_block c s b Hinv Hbin) as (_ & _ & (k & chk & Hk & Hin & Hs)).
  destruct Hinv as ((Hok & Hd & _) & _). rewrite Ec in Hs. destruct Hs as [_ Hks].
  destruct (Nat.eq_dec k i) as [->|Hne].
  - left. rewrite En in Hk. injection Hk as <-. exact (Hks eq_refl Hpos).
  - right. intros q n Hin'. eapply (placed_other_chunk_disjoint c (chunks s) k i); eassumption.
Qed.

Lemma dealloc_last_inv c s p sz :
  cfg_ok c -> inv c s -> 0 <= sz -> placed c s p sz ->
  (forall b, In b (live s) -> disjoint_rng (bptr b) (bsize b) p sz) ->
  is_last c s p sz = true ->
  inv c (dealloc_assume_last c s p sz).
Proof.
  intros Hc Hinv Hsz Hpl Hdis Hlast. unfold dealloc_assume_last.
  destruct (negb (deallocates c)); [exact Hinv|].
  destruct (is_last_spec c s p sz Hlast) as (ch & Ecc & Hl). destruct (cur_chunk_spec s ch Ecc) as (i & Ec & En).
  pose proof (proj1 Hinv) as Hg. destruct (ginv_cur_chunk c s i ch Hg Ec En) as [[_ Hpos] Hmp].
  pose proof (min_align_pos _ (proj1 (proj2 (proj2 Hg)))) as Hmpos.
  destruct (is_last_in_cur c s i ch p sz Hc Hg Ec En Hsz Hpl Hl) as [I1 I2].
  assert (Hside : forall b, In b (live s) -> 0 < bsize b -> in_chunk c ch (bptr b) (bsize b) ->
            if up c then bptr b + bsize b <= p else p + sz <= bptr b).
  { intros b Hin Hbs Hinc. specialize (Hdis b Hin). unfold disjoint_rng in Hdis.
    destruct (live_block_vs_cur c s i ch b Hc Hinv Ec En Hin Hbs) as [Hs|Hdj];
      [|specialize (Hdj _ _ Hinc); unfold disjoint_rng in Hdj; lia].
    clear - Hs Hdis Hl Hbs Hsz. destruct (up c); lia. }
  destruct (up c) eqn:Eup; unfold align_posZ.
  - pose proof (up_align_ge p (malign s) Hmpos).
    assert (up_alignZ p (malign s) <= cpos ch) by (apply up_align_min; [exact Hmpos|exact Hmp|lia]).
    apply (set_cur_pos_inv c s i ch _ Hinv Ec En); [lia|apply up_align_div; exact Hmpos|].
    rewrite Eup. intros b Hin Hbs Hinc. specialize (Hside b Hin Hbs Hinc). lia.
  - pose proof (down_align_le (p + sz) (malign s) Hmpos).
    assert (cpos ch <= down_alignZ (p + sz) (malign s)) by (apply down_align_max; [exact Hmpos|exact Hmp|lia]).
    apply (set_cur_pos_inv c s i ch _ Hinv Ec En); [lia|apply down_align_div; exact Hmpos|].
    rewrite Eup. intros b Hin Hbs Hinc. specialize (Hside b Hin Hbs Hinc). lia.
Qed.

Lemma walk_next_char {R} c (f : chunk -> option (R * chunk)) : forall fuel cs i cs' j res,
  walk_next c f cs i fuel = (cs', j, res) ->
  (i <= j)%nat /\ length cs' = length cs /\
  (forall k, (k <= i \/ j < k)%nat -> nth_error cs' k = nth_error cs k) /\
  (forall k, (i < k <= j)%nat -> exists ch, nth_error cs k = Some ch /\
     match f (reset_chunk c ch) with
     | None => nth_error cs' k = Some (reset_chunk c ch) /\ (k = j -> res = None)
     | Some (x, ch1) => nth_error cs' k = Some ch1 /\ k = j /\ res = Some x
     end) /\
  match res with
  | Some _ => (i < j)%nat
  | None => (length cs <= S j \/ j = i + fuel)%nat
  end.
Proof.
  induction fuel as [|fuel IH]; intros cs i cs' j res H; cbn [walk_next] in H.
  2: destruct (nth_error cs (S i)) as [ch|] eqn:En.
  1,3: injection H as <- <- <-; try apply nth_error_None in En;
    repeat split; try lia; intros k Hk; lia.
  pose proof (nth_error_some_lt _ _ _ En) as Hlt.
  destruct (f (reset_chunk c ch)) as [[x ch1]|] eqn:Ef.
  - injection H as <- <- <-. split; [lia|]. split; [apply set_nth_length|].
    split; [intros k Hk; apply nth_error_set_nth_neq; lia|]. split; [|lia].
    intros k Hk. assert (k = S i) by lia. subst k. exists ch. split; [exact En|]. rewrite Ef.
    split; [apply nth_error_set_nth_eq; exact Hlt|split; reflexivity].
  - destruct (IH _ _ _ _ _ H) as (Hij & Hlen & Hsame & Hmid & Hend). rewrite set_nth_length in Hlen, Hend.
    split; [lia|]. split; [exact Hlen|].
    split; [intros k Hk; rewrite Hsame by lia; apply nth_error_set_nth_neq; lia|].
    split; [|destruct res; lia].
    intros k Hk. destruct (Nat.eq_dec k (S i)) as [->|Hne].
    + exists ch. split; [exact En|]. rewrite Ef, Hsame by lia.
      split; [apply nth_error_set_nth_eq; exact Hlt|]. intros <-. destruct res; [lia|reflexivity].
    + destruct (Hmid k ltac:(lia)) as (chk & Ek & Hk'). exists chk. split; [|exact Hk'].
      rewrite nth_error_set_nth_neq in Ek by lia. exact Ek.
Qed.

Lemma walk_next_map {R X} c (f : chunk -> option (R * chunk)) (g : chunk -> X) fuel cs i cs' j res :
  (forall ch, g (reset_chunk c ch) = g ch) -> (forall ch x ch1, f ch = Some (x, ch1) -> g ch1 = g ch) ->
  walk_next c f cs i fuel = (cs', j, res) -> map g cs' = map g cs.
Proof.
  intros Hr Hf H. destruct (walk_next_char c f _ _ _ _ _ _ H) as (_ & _ & Hsame & Hmid & _).
  apply nth_error_ext. intros k. rewrite !nth_error_map.
  destruct (le_lt_dec k i); [rewrite Hsame by lia; reflexivity|].
  destruct (le_lt_dec k j); [|rewrite Hsame by lia; reflexivity].
  destruct (Hmid k ltac:(lia)) as (ch & -> & Hk).
  destruct (f (reset_chunk c ch)) as [[x ch1]|] eqn:Ef; destruct Hk as [-> _]; cbn [option_map];
    [rewrite (Hf _ _ _ Ef)|]; rewrite Hr; reflexivity.
Qed.

Lemma walk_next_none_last {R} c (f : chunk -> option (R * chunk)) fuel cs i cs' j :
  (length cs <= S i + fuel)%nat -> walk_next c f cs i fuel = (cs', j, None) -> (length cs' <= S j)%nat.
Proof. intros Hl H. destruct (walk_next_char c f _ _ _ _ _ _ H) as (_ & Hlen & _ & _ & Hend). lia. Qed.

Lemma grow_arena_shape c s size align r s1 e :
  grow_arena c s size align r = (s1, e) ->
  frame s s1 /\
  match e with
  | Some _ => chunks s1 = chunks s /\ cur s1 = cur s
  | None => exists n addr g, r = Some (addr, g) /\ new_chunk_size c (prev_size s) size align = Some n /\
            chunks s1 = chunks s ++ [make_chunk c n addr g] /\ cur s1 = Cur (length (chunks s))
  end.
Proof.
  unfold grow_arena. fold (prev_size s). destruct (new_chunk_size c (prev_size s) size align) as [n|].
  - destruct r as [[addr g]|]; intros [= <- <-]; (split; [repeat split|]).
    + exists n, addr, g. repeat split.
    + split; reflexivity.
  - intros [= <- <-]. split; [apply frame_refl|split; reflexivity].
Qed.

Lemma ginv_made_chunk c s size align addr g n s1 :
  cfg_ok c -> ginv c s -> resp_ok c s size align (Some (addr, g)) ->
  new_chunk_size c (prev_size s) size align = Some n ->
  chunks s1 = chunks s ++ [make_chunk c n addr g] -> cur s1 = Cur (length (chunks s)) -> aligns s1 = aligns s ->
  ginv c s1.
Proof.
  intros Hc (Hok & Hd & Hm & _) (R1 & R2 & R3 & R4 & R5 & R6) En Ech Ecu Eal.
  destruct (new_chunk_size_facts _ _ _ _ _ Hc En) as (N1 & N2 & N3 & _).
  destruct (make_chunk_ok c n addr g Hc N1 N2 N3 (R5 n En) R1 R2 R3 R4) as (M1 & M2 & M3 & M4).
  apply (ginv_intro c s1 (length (chunks s)) (make_chunk c n addr g)); unfold malign in *; rewrite ?Ech, ?Eal; try assumption.
  - apply Forall_app. split; [exact Hok|constructor; [exact M1|constructor]].
  - apply chunks_disjoint_app; [exact Hd|]. intros ch0 Hin. rewrite M3, M4. exact (R6 ch0 Hin).
  - apply nth_error_app_last.
  - exact (min_align_divides _ _ Hm M2).
Qed.

Lemma grow_arena_ginv c s size align r s1 e :
  cfg_ok c -> ginv c s -> resp_ok c s size align r -> grow_arena c s size align r = (s1, e) -> ginv c s1.
Proof.
  intros Hc Hg Hr Eg. destruct (grow_arena_shape c s size align r s1 e Eg) as [(_ & _ & _ & Eal & _) Hs1].
  destruct e as [e|].
  - destruct Hs1 as [Ech Ecu]. exact (ginv_ext c s s1 Ech Ecu Eal Hg).
  - destruct Hs1 as (n & addr & g & -> & En & Ech & Ecu). exact (ginv_made_chunk c s size align addr g n s1 Hc Hg Hr En Ech Ecu Eal).
Qed.

(* the last step of the slow path, after a chunk was appended: the action on the current chunk *)
Definition on_current {R} (f : chunk -> option (R * chunk)) (s : arena) : arena * (R + err) :=
  match cur s with
  | Cur j =>
    match nth_error (chunks s) j with
    | Some ch =>
      match f ch with
      | Some (res, ch1) => (upd_chunks s (set_nth (chunks s) j ch1), inl res)
      | None => (s, inr ErrOverflow)
      end
    | None => (s, inr ErrOverflow)
    end
  | _ => (s, inr ErrOverflow)
  end.

Lemma in_another_chunk_unfold {R} c s h size align (f : chunk -> option (R * chunk)) r :
  in_another_chunk c s h size align f r =
  match h with
  | Claimed => (s, inr ErrClaimed)
  | Unalloc =>
    match grow_arena c s size align r with
    | (s1, Some e) => (s1, inr e)
    | (s1, None) => on_current f s1
    end
  | Cur i =>
    match walk_next c f (chunks s) i (length (chunks s)) with
    | (cs, j, Some res) => (upd_cur (upd_chunks s cs) (Cur j), inl res)
    | (cs, j, None) =>
      match grow_arena c (upd_cur (upd_chunks s cs) (Cur j)) size align r with
      | (s1, Some e) => (upd_cur s1 (Cur i), inr e)
      | (s1, None) => on_current f s1
      end
    end
  end.
Proof. reflexivity. Qed.

(* how the slow path ends when none of the chunks cs serves (prev is the size of the last of them) *)
Definition slow_tail {R} (c : cfg) (f : chunk -> option (R * chunk)) (size align : Z) (r : resp)
    (prev : option Z) (cs : list chunk) (h0 : hstate) (s' : arena) (res : R + err) : Prop :=
  (chunks s' = cs /\ cur s' = h0 /\ exists e, res = inr e) \/
  exists n addr g, r = Some (addr, g) /\ new_chunk_size c prev size align = Some n /\
    cur s' = Cur (length cs) /\
    match f (make_chunk c n addr g) with
    | Some (x, ch1) => chunks s' = cs ++ [ch1] /\ res = inl x
    | None => chunks s' = cs ++ [make_chunk c n addr g] /\ res = inr ErrOverflow
    end.

Lemma in_another_chunk_cases {R} c s h size align (f : chunk -> option (R * chunk)) r s' res :
  in_another_chunk c s h size align f r = (s', res) ->
  frame s s' /\
  match h with
  | Claimed => chunks s' = chunks s /\ cur s' = cur s /\ res = inr ErrClaimed
  | Unalloc => slow_tail c f size align r (prev_size s) (chunks s) (cur s) s' res
  | Cur i =>
    exists cs j wres, walk_next c f (chunks s) i (length (chunks s)) = (cs, j, wres) /\
      match wres with
      | Some x => chunks s' = cs /\ cur s' = Cur j /\ res = inl x
      | None => slow_tail c f size align r (prev_size (upd_chunks s cs)) cs (Cur i) s' res
      end
  end.
Proof.
  assert (Happ : forall s0 s1, grow_arena c s0 size align r = (s1, None) -> on_current f s1 = (s', res) ->
            frame s0 s' /\ forall h0, slow_tail c f size align r (prev_size s0) (chunks s0) h0 s' res).
  { intros s0 s1 Eg H. destruct (grow_arena_shape _ _ _ _ _ _ _ Eg) as (Hfr & n & addr & g & Er & En & Ech & Ecu).
    unfold on_current in H. rewrite Ecu, Ech, nth_error_app_last in H. split.
    - destruct (f (make_chunk c n addr g)) as [[x ch1]|]; injection H as <- _; exact Hfr.
    - intros h0. right. exists n, addr, g. split; [exact Er|]. split; [exact En|].
      destruct (f (make_chunk c n addr g)) as [[x ch1]|]; injection H as <- <-; cbn [chunks cur upd_chunks];
        rewrite ?Ech, ?set_nth_app_last; repeat split; exact Ecu. }
  intros H. rewrite in_another_chunk_unfold in H. destruct h as [i| |].
  - destruct (walk_next c f (chunks s) i (length (chunks s))) as [[cs j] [x|]].
    { injection H as <- <-. split; [repeat split|]. exists cs, j, (Some x). repeat split. }
    destruct (grow_arena c (upd_cur (upd_chunks s cs) (Cur j)) size align r) as [s1 [e|]] eqn:Eg.
    + injection H as <- <-. destruct (grow_arena_shape _ _ _ _ _ _ _ Eg) as (Hfr & Ech & _).
      split; [exact Hfr|]. exists cs, j, None. split; [reflexivity|]. left.
      split; [exact Ech|]. split; [reflexivity|]. exists e. reflexivity.
    + destruct (Happ _ s1 Eg H) as [Hfr Ht]. split; [exact Hfr|]. exists cs, j, None. split; [reflexivity|exact (Ht (Cur i))].
  - destruct (grow_arena c s size align r) as [s1 [e|]] eqn:Eg.
    + injection H as <- <-. destruct (grow_arena_shape _ _ _ _ _ _ _ Eg) as (Hfr & Ech & Ecu).
      split; [exact Hfr|]. left. split; [exact Ech|]. split; [exact Ecu|]. exists e. reflexivity.
    + destruct (Happ s s1 Eg H) as [Hfr Ht]. exact (conj Hfr (Ht (cur s))).
  - injection H as <- <-. repeat split.
Qed.

Lemma in_another_chunk_found {R} c s i size align (f : chunk -> option (R * chunk)) r cs j x :
  walk_next c f (chunks s) i (length (chunks s)) = (cs, j, Some x) ->
  in_another_chunk c s (Cur i) size align f r = (upd_cur (upd_chunks s cs) (Cur j), inl x).
Proof. intros E. rewrite in_another_chunk_unfold, E. reflexivity. Qed.

Lemma in_another_chunk_shape {R} c s h size align (f : chunk -> option (R * chunk)) r s' res :
  in_another_chunk c s h size align f r = (s', res) ->
  frame s s' /\
  forall i, h = Cur i -> (i < length (chunks s))%nat ->
    (forall k, (k <= i)%nat -> nth_error (chunks s') k = nth_error (chunks s) k) /\
    (exists j, cur s' = Cur j /\ (i <= j)%nat) /\
    (forall p, res = inl p -> cur s' <> Cur i).
Proof.
  intros H. destruct (in_another_chunk_cases _ _ _ _ _ _ _ _ _ H) as [Hfr Hcase]. split; [exact Hfr|].
  intros i -> Hi. destruct Hcase as (cs & j & wres & Ew & Hcase).
  destruct (walk_next_char _ _ _ _ _ _ _ _ Ew) as (Hij & Hlen & Hsame & _ & Hend).
  enough (exists t j', chunks s' = cs ++ t /\ cur s' = Cur j' /\ (i <= j')%nat /\ (forall p, res = inl p -> j' <> i))
    as (t & j' & Ech & Ecu & Hj' & Hne).
  { rewrite Ech, Ecu. split; [intros k Hk; rewrite nth_error_app1 by lia; apply Hsame; left; exact Hk|].
    split; [exists j'; auto|]. intros p Hp [= E]. exact (Hne p Hp E). }
  destruct wres as [x|]; [|destruct Hcase as [(Ech & Ecu & e & ->)|(n & addr & g & _ & _ & Ecu & Hmk)]].
  - exists [], j. rewrite app_nil_r. destruct Hcase as (Ech & Ecu & _). repeat split; auto; lia.
  - exists [], i. rewrite app_nil_r. repeat split; auto; discriminate.
  - destruct (f (make_chunk c n addr g)) as [[x ch1]|]; destruct Hmk as [Ech _]; eexists [_], (length cs);
      (split; [exact Ech|]); (split; [exact Ecu|]); split; intros; lia.
Qed.

(* raw_alloc is this function for f := chunk_alloc, by conversion (Arena.raw_alloc is written with
   the same three-level match: the lemmas below are applied to equations about raw_alloc as they
   stand); raw_prepare and raw_prepare_range are it for their actions by the two equations below *)
Definition fast_or_slow {R} (c : cfg) (s : arena) (size align : Z) (f : chunk -> option (R * chunk)) (r : resp)
    : arena * (R + err) :=
  match cur s with
  | Cur i =>
    match nth_error (chunks s) i with
    | Some ch =>
      match f ch with
      | Some (x, ch1) => (upd_chunks s (set_nth (chunks s) i ch1), inl x)
      | None => in_another_chunk c s (cur s) size align f r
      end
    | None => (s, inr ErrOverflow)
    end
  | h => in_another_chunk c s h size align f r
  end.

Lemma fast_or_slow_cases {R} c s size align (f : chunk -> option (R * chunk)) r s' res :
  fast_or_slow c s size align f r = (s', res) ->
  (exists i ch x ch1, cur s = Cur i /\ nth_error (chunks s) i = Some ch /\ f ch = Some (x, ch1) /\
     s' = upd_chunks s (set_nth (chunks s) i ch1) /\ res = inl x) \/
  in_another_chunk c s (cur s) size align f r = (s', res) \/
  (exists i, cur s = Cur i /\ nth_error (chunks s) i = None) /\ s' = s /\ res = inr ErrOverflow.
Proof.
  unfold fast_or_slow. intros H. destruct (cur s) as [i| |] eqn:Ec; [|right; left; exact H..].
  destruct (nth_error (chunks s) i) as [ch|] eqn:En.
  - destruct (f ch) as [[x ch1]|] eqn:Ef; [left|right; left; exact H].
    injection H as <- <-. exists i, ch, x, ch1. auto 6.
  - right; right. injection H as <- <-. split; [exists i|]; auto.
Qed.

Lemma fast_or_slow_cases_ginv {R} c s size align (f : chunk -> option (R * chunk)) r s' res :
  ginv c s -> fast_or_slow c s size align f r = (s', res) ->
  (exists i ch x ch1, cur s = Cur i /\ nth_error (chunks s) i = Some ch /\ f ch = Some (x, ch1) /\
     s' = upd_chunks s (set_nth (chunks s) i ch1) /\ res = inl x) \/
  in_another_chunk c s (cur s) size align f r = (s', res).
Proof.
  intros Hg H. destruct (fast_or_slow_cases c s size align f r s' res H) as [Hf|[Hs|((i & Ec & En) & _)]];
    [left; exact Hf|right; exact Hs|].
  destruct (ginv_cur c s i Hg Ec) as (ch & En' & _). congruence.
Qed.

Lemma fast_or_slow_frame {R} c s size align (f : chunk -> option (R * chunk)) r :
  frame s (fst (fast_or_slow c s size align f r)).
Proof.
  destruct (fast_or_slow c s size align f r) as [s' res] eqn:H.
  destruct (fast_or_slow_cases c s size align f r s' res H) as [(i & ch & x & ch1 & _ & _ & _ & -> & _)|[Hs|(_ & -> & _)]];
    [repeat split|exact (proj1 (in_another_chunk_shape _ _ _ _ _ _ _ _ _ Hs))|apply frame_refl].
Qed.

Lemma upd_chunks_same s i ch : nth_error (chunks s) i = Some ch -> upd_chunks s (set_nth (chunks s) i ch) = s.
Proof. intros En. rewrite (set_nth_same _ _ _ En). destruct s; reflexivity. Qed.

Lemma raw_prepare_fast_or_slow c s size align r :
  raw_prepare c s size align r =
  fast_or_slow c s size align (fun ch => chunk_prepare_sized c (malign s) ch size align) r.
Proof.
  unfold raw_prepare, fast_or_slow. destruct (cur s) as [i| |]; try reflexivity.
  destruct (nth_error (chunks s) i) as [ch|] eqn:En; [|reflexivity]. cbv zeta beta. unfold chunk_prepare_sized.
  destruct (chunk_alloc c (malign s) ch size align) as [[p c0]|]; [|reflexivity].
  rewrite (upd_chunks_same s i ch En). reflexivity.
Qed.

Definition prepare_action (c : cfg) (size align : Z) (ch : chunk) : option ((Z * Z) * chunk) :=
  match chunk_prepare c ch size align with Some rng => Some (rng, ch) | None => None end.

Lemma raw_prepare_range_fast_or_slow c s size align r :
  raw_prepare_range c s size align r = fast_or_slow c s size align (prepare_action c size align) r.
Proof.
  unfold raw_prepare_range, fast_or_slow, prepare_action. cbv zeta. destruct (cur s) as [i| |]; try reflexivity.
  destruct (nth_error (chunks s) i) as [ch|] eqn:En; [|reflexivity]. cbv beta.
  destruct (chunk_prepare c ch size align) as [rng|]; [|reflexivity].
  rewrite (upd_chunks_same s i ch En). reflexivity.
Qed.

Lemma prepare_action_readonly c size align ch x ch1 : prepare_action c size align ch = Some (x, ch1) -> ch1 = ch.
Proof. unfold prepare_action. destruct (chunk_prepare c ch size align); [|discriminate]. intros [= _ <-]. reflexivity. Qed.

Lemma prepare_sized_readonly c m size align ch x ch1 : chunk_prepare_sized c m ch size align = Some (x, ch1) -> ch1 = ch.
Proof. unfold chunk_prepare_sized. destruct (chunk_alloc c m ch size align) as [[p c0]|]; [|discriminate]. intros [= _ <-]. reflexivity. Qed.

Lemma raw_alloc_cur c s size align r j ch :
  cur s = Cur j -> nth_error (chunks s) j = Some ch ->
  raw_alloc c s size align r =
  match chunk_alloc c (malign s) ch size align with
  | Some (p, ch1) => (upd_chunks s (set_nth (chunks s) j ch1), inl p)
  | None => in_another_chunk c s (Cur j) size align (fun ch0 => chunk_alloc c (malign s) ch0 size align) r
  end.
Proof. intros Ec En. unfold raw_alloc. rewrite Ec, En. reflexivity. Qed.

Lemma raw_alloc_slow_frame c s size align r : frame s (fst (raw_alloc_slow c s size align r)).
Proof. unfold raw_alloc_slow. eapply in_another_chunk_shape, surjective_pairing. Qed.

Lemma raw_alloc_frame c s size align r : frame s (fst (raw_alloc c s size align r)).
Proof. apply fast_or_slow_frame. Qed.

Section SlowPath.
  Context {R : Type} (c : cfg) (f : chunk -> option (R * chunk)) (Q : chunk -> R -> Prop) (size align : Z).
  Definition action_ok (m : Z) : Prop :=
    forall ch p ch1, chunk_ok c ch -> (m | cpos ch) -> f ch = Some (p, ch1) ->
      chunk_ok c ch1 /\ same_geom ch ch1 /\ (m | cpos ch1) /\ Q ch1 p.
  Definition fits_fresh : Prop :=
    forall prev n addr g, new_chunk_size c prev size align = Some n -> n <= g -> (ha c | addr) ->
      f (make_chunk c n addr g) <> None.
  (* the failure case needs fits_fresh: else the chunk just appended is current when f refuses it *)
  Definition slow_result (h0 : hstate) (s' : arena) (res : R + err) : Prop :=
    match res with
    | inl p => exists j ch, cur s' = Cur j /\ nth_error (chunks s') j = Some ch /\ Q ch p
    | inr _ => fits_fresh -> cur s' = h0
    end.

  Lemma walk_next_spec m fuel cs i cs' j res :
    cfg_ok c -> valid_min_align m -> action_ok m -> Forall (chunk_ok c) cs ->
    walk_next c f cs i fuel = (cs', j, res) ->
    Forall (chunk_ok c) cs' /\ Forall2 same_geom cs cs' /\
    ((i < j)%nat -> exists ch, nth_error cs' j = Some ch /\ (m | cpos ch)) /\
    (forall p, res = Some p -> exists ch, nth_error cs' j = Some ch /\ Q ch p).
  Proof.
    intros Hc Hm Hf Hok H. destruct (walk_next_char c f _ _ _ _ _ _ H) as (_ & Hlen & Hsame & Hmid & Hend).
    (* a chunk offered to f was good, so reset it is good and aligned, and Hf applies *)
    assert (Hall : forall k a b, nth_error cs k = Some a -> nth_error cs' k = Some b ->
              chunk_ok c b /\ same_geom a b /\
              ((i < k <= j)%nat -> (m | cpos b) /\ forall p, k = j -> res = Some p -> Q b p)).
    { intros k a b Ea Eb. pose proof (Forall_nth_error _ _ _ _ Hok Ea) as Hoka.
      destruct (le_lt_dec k i) as [|Hik]; [|destruct (le_lt_dec k j) as [Hkj|]].
      1,3: rewrite Hsame, Ea in Eb by lia; injection Eb as <-;
        split; [exact Hoka|]; split; [apply same_geom_refl|lia].
      destruct (Hmid k (conj Hik Hkj)) as (ch & En & Hch). rewrite Ea in En. injection En as <-.
      destruct (fresh_pos_ok c Hc a (proj1 Hoka)) as [Hrok Hr16].
      pose proof (min_align_divides m _ Hm Hr16 : (m | cpos (reset_chunk c a))) as Hrm.
      destruct (f (reset_chunk c a)) as [[x ch1]|] eqn:Ef.
      - destruct Hch as (E' & _ & ->). rewrite Eb in E'. injection E' as ->.
        destruct (Hf _ _ _ Hrok Hrm Ef) as (A1 & A2 & A3 & A4).
        split; [exact A1|]. split; [exact (same_geom_trans _ _ _ (same_geom_set_pos a _) A2)|].
        intros _. split; [exact A3|]. intros p _ [= <-]. exact A4.
      - destruct Hch as (E' & Hn). rewrite Eb in E'. injection E' as ->.
        split; [exact Hrok|]. split; [apply same_geom_set_pos|]. intros _. split; [exact Hrm|].
        intros p Ej Ep. rewrite (Hn Ej) in Ep. discriminate. }
    assert (H2 : Forall2 same_geom cs cs')
      by (apply Forall2_pointwise; [exact Hlen|intros k a b Ea Eb; apply (Hall k a b Ea Eb)]).
    assert (Hj : (i < j)%nat -> exists b, nth_error cs' j = Some b /\ (m | cpos b) /\ forall p, res = Some p -> Q b p).
    { intros Hlt. destruct (Hmid j ltac:(lia)) as (a & Ea & _). destruct (Forall2_nth_error _ _ _ _ _ H2 Ea) as (b & Eb & _).
      destruct (proj2 (proj2 (Hall j a b Ea Eb)) ltac:(lia)) as [A3 A4]. exists b. eauto. }
    split.
    { apply Forall_forall. intros b Hin. apply In_nth_error in Hin. destruct Hin as [k Eb].
      destruct (Forall2_nth_error_r _ _ _ _ _ H2 Eb) as (a & Ea & _). apply (Hall k a b Ea Eb). }
    split; [exact H2|]. split.
    - intros Hlt. destruct (Hj Hlt) as (b & Eb & A3 & _). exists b. exact (conj Eb A3).
    - intros p ->. destruct (Hj Hend) as (b & Eb & _ & A4). exists b. exact (conj Eb (A4 p eq_refl)).
  Qed.

  Lemma slow_tail_keeps s0 h0 r s' res :
    cfg_ok c -> ginv c s0 -> resp_ok c s0 size align r -> action_ok (malign s0) -> aligns s' = aligns s0 ->
    ginv c (upd_cur s0 h0) ->
    slow_tail c f size align r (prev_size s0) (chunks s0) h0 s' res ->
    ginv c s' /\ slow_result h0 s' res.
  Proof.
    intros Hc Hg0 Hr0 Hf Eal Hgh [(Ech & Ecu & e & ->)|(n & addr & g & -> & En & Ecu & Hmk)].
    { split; [exact (ginv_ext c (upd_cur s0 h0) s' Ech Ecu Eal Hgh)|intros _; exact Ecu]. }
    set (mk := make_chunk c n addr g) in *.
    set (s1 := upd_cur (upd_chunks s0 (chunks s0 ++ [mk])) (Cur (length (chunks s0)))).
    pose proof (ginv_made_chunk c s0 size align addr g n s1 Hc Hg0 Hr0 En eq_refl eq_refl eq_refl) as Hg1.
    pose proof (nth_error_app_last (chunks s0) mk) as Enm.
    destruct (ginv_cur_chunk c s1 _ mk Hg1 eq_refl Enm) as [Hmkok Hmp]. pose proof Hg1 as (Hok & Hd & Hm & _).
    destruct (f mk) as [[x ch1]|] eqn:Ef; destruct Hmk as [Ech ->].
    - destruct (Hf mk x ch1 Hmkok Hmp Ef) as (H1 & H2 & H3 & H4). split.
      + apply (ginv_replace c s1 s' (length (chunks s0)) mk ch1 Hok Hd Hm Enm H1 H2 H3); [|exact Ecu|exact Eal].
        rewrite Ech. symmetry. apply set_nth_app_last.
      + exists (length (chunks s0)), ch1. rewrite Ech, nth_error_app_last. auto.
    - split; [exact (ginv_ext c s1 s' Ech Ecu Eal Hg1)|].
      intros Hfresh. destruct Hr0 as (_ & Hb & _ & _ & Hng & _). destruct (Hfresh _ n addr g En (Hng n En) Hb Ef).
  Qed.

  Lemma in_another_chunk_keeps s r s' res :
    cfg_ok c -> ginv c s -> resp_ok c s size align r -> action_ok (malign s) ->
    in_another_chunk c s (cur s) size align f r = (s', res) ->
    transfer c s s' /\ slow_result (cur s) s' res.
  Proof.
    intros Hc Hg Hr Hf H. destruct (in_another_chunk_cases _ _ _ _ _ _ _ _ _ H) as [Hfr Hcase].
    assert (Hpl : forall q sz, 0 <= sz -> placed c s q sz -> placed c s' q sz).
    { intros q sz _ Hq. destruct (cur s) as [i| |] eqn:Ei;
        [|destruct Hq as (k & ch & _ & _ & Hq); rewrite Ei in Hq; contradiction..].
      destruct (proj2 (in_another_chunk_shape _ _ _ _ _ _ _ _ _ H) i eq_refl (ginv_cur_lt c s i Hg Ei)) as (Hsame & (j & Ej & Hij) & _).
      exact (placed_mono c s s' i j q sz Ei Ej Hij Hsame Hq). }
    enough (ginv c s' /\ slow_result (cur s) s' res) as [Hg' Hres] by exact (conj (conj Hfr (conj Hg' Hpl)) Hres).
    clear H Hpl. destruct Hfr as (_ & _ & _ & Eal & _).
    destruct (cur s) as [i| |] eqn:Ec; [| |destruct Hg as (_ & _ & _ & Hcur); rewrite Ec in Hcur; contradiction].
    - destruct Hcase as (cs & j & wres & Ew & Hcase). pose proof Hg as (Hok & Hd & Hm & _).
      destruct (ginv_cur c s i Hg Ec) as (chi & Eni & _ & Hmpi).
      destruct (walk_next_char _ _ _ _ _ _ _ _ Ew) as (Hij & _ & W4 & _).
      destruct (walk_next_spec (malign s) _ _ _ _ _ _ Hc Hm Hf Hok Ew) as (W1 & W2 & W6 & W7).
      (* the walked chunks make a good arena with chunk i or chunk j current *)
      assert (Hgw : forall j', j' = i \/ j' = j -> ginv c (upd_cur (upd_chunks s cs) (Cur j'))).
      { intros j' Hj'. assert (exists ch, nth_error cs j' = Some ch /\ (malign s | cpos ch)) as (ch & En & Hmp).
        { destruct Hj' as [->| ->]; [|destruct (Nat.eq_dec j i) as [->|Hne]; [|apply W6; lia]];
            exists chi; (split; [rewrite W4 by lia; exact Eni|exact Hmpi]). }
        apply (ginv_intro c _ j' ch); try assumption; [|reflexivity]. exact (chunks_disjoint_same_geom _ _ W2 Hd). }
      destruct wres as [p|].
      { destruct Hcase as (Ech & Ecu & ->).
        split; [exact (ginv_ext c (upd_cur (upd_chunks s cs) (Cur j)) s' Ech Ecu Eal (Hgw j (or_intror eq_refl)))|].
        destruct (W7 p eq_refl) as (chj & Ej & Hq). exists j, chj. rewrite Ech. auto. }
      apply (slow_tail_keeps (upd_cur (upd_chunks s cs) (Cur j)) (Cur i) r s' res Hc); try assumption.
      + apply Hgw. right. reflexivity.
      + exact (resp_ok_same_geom c s (upd_cur (upd_chunks s cs) (Cur j)) size align r W2 Hr).
      + apply Hgw. left. reflexivity.
    - apply (slow_tail_keeps s Unalloc r s' res Hc); try assumption.
      apply (ginv_ext c s); auto.
  Qed.

  Lemma fast_or_slow_failed s r s1 e :
    cfg_ok c -> ginv c s -> resp_ok c s size align r -> action_ok (malign s) -> fits_fresh ->
    fast_or_slow c s size align f r = (s1, inr e) ->
    cur s1 = cur s /\
    match cur s with
    | Cur i => forall k, (k <= i)%nat -> nth_error (chunks s1) k = nth_error (chunks s) k
    | _ => chunks s1 = chunks s
    end.
  Proof.
    intros Hc Hg Hr Hf Hfresh H0.
    destruct (fast_or_slow_cases_ginv c s size align f r s1 (inr e) Hg H0) as [(i & ch & x & ch1 & _ & _ & _ & _ & [=])|H].
    destruct (in_another_chunk_keeps s r s1 (inr e) Hc Hg Hr Hf H) as ((_ & Hg1 & _) & Ecur).
    specialize (Ecur Hfresh). split; [exact Ecur|].
    destruct (cur s) as [i| |] eqn:Ec.
    - apply (proj2 (in_another_chunk_shape c s (Cur i) size align f r s1 (inr e) H) i eq_refl (ginv_cur_lt c s i Hg Ec)).
    - destruct Hg as (_ & _ & _ & Hcur), Hg1 as (_ & _ & _ & Hcur1). rewrite Ecur in Hcur1. rewrite Ec in Hcur. congruence.
    - destruct Hg as (_ & _ & _ & Hcur). rewrite Ec in Hcur. contradiction.
  Qed.
End SlowPath.

Definition alloc_result_ok (c : cfg) (s s' : arena) (size align : Z) (res : Z + err) : Prop :=
  frame s s' /\ ginv c s' /\
  (forall q sz, 0 <= sz -> placed c s q sz -> placed c s' q sz) /\
  match res with
  | inl p => (align | p) /\ placed c s' p size /\
             (forall q sz, 0 <= sz -> placed c s q sz -> disjoint_rng q sz p size)
  | inr _ => True
  end.

Lemma chunk_alloc_geom c m ch size align p ch1 :
  cfg_ok c -> chunk_ok c ch -> valid_min_align m -> (m | cpos ch) -> valid_layout size align ->
  chunk_alloc c m ch size align = Some (p, ch1) ->
  chunk_ok c ch1 /\ same_geom ch ch1 /\ (m | cpos ch1) /\ (align | p) /\
  in_chunk c ch1 p size /\ alloc_side c ch1 p size /\
  (forall q sz, 0 <= sz -> in_chunk c ch q sz -> alloc_side c ch q sz ->
     alloc_side c ch1 q sz /\ disjoint_rng q sz p size).
Proof.
  intros Hc Hok Hm Hmp Hl H.
  destruct (chunk_alloc_sound c Hc m ch size align p ch1 Hok Hm Hmp Hl H) as (np & -> & Hap & Hmnp & Hnp & Hside).
  pose proof Hok as [Hg Hpos]. destruct Hl as (_ & Hs0 & _).
  split; [exact (set_pos_ok c ch np Hg Hnp)|]. split; [apply same_geom_set_pos|].
  split; [exact Hmnp|]. split; [exact Hap|].
  unfold in_chunk, alloc_side, disjoint_rng.
  change (content_start c (set_pos ch np)) with (content_start c ch).
  change (content_end c (set_pos ch np)) with (content_end c ch).
  cbn [set_pos cpos].
  destruct (up c); destruct Hside as [S1 S2]; [|subst np]; (split; [lia|]); (split; [lia|]).
  all: intros q sz Hsz [I1 I2] Ha; split; [intros Hp; specialize (Ha Hp); lia|].
  all: destruct (Z_le_gt_dec sz 0); [lia|]; specialize (Ha ltac:(lia)); lia.
Qed.

Lemma alloc_action_ok c m size align :
  cfg_ok c -> valid_min_align m -> valid_layout size align ->
  action_ok c (fun ch => chunk_alloc c m ch size align)
    (fun ch1 p => (align | p) /\ in_chunk c ch1 p size /\ alloc_side c ch1 p size) m.
Proof.
  intros Hc Hm Hl ch p ch1 Hok Hmp Hf.
  destruct (chunk_alloc_geom c m ch size align p ch1 Hc Hok Hm Hmp Hl Hf) as (G1 & G2 & G3 & G4 & G5 & G6 & _).
  exact (conj G1 (conj G2 (conj G3 (conj G4 (conj G5 G6))))).
Qed.

Lemma prepare_action_ok c size align m :
  action_ok c (prepare_action c size align) (fun ch rng => chunk_prepare c ch size align = Some rng) m.
Proof.
  intros ch p ch1 Hok Hm Hf. unfold prepare_action in Hf.
  destruct (chunk_prepare c ch size align) eqn:E; [|discriminate]. injection Hf as <- <-.
  auto using same_geom_refl.
Qed.

Lemma prepare_sized_action_ok c m size align m' :
  action_ok c (fun ch => chunk_prepare_sized c m ch size align) (fun _ _ => True) m'.
Proof.
  intros ch p ch1 Hok Hmp Hf. rewrite (prepare_sized_readonly _ _ _ _ _ _ _ Hf). auto using same_geom_refl.
Qed.

Lemma fast_or_slow_readonly_keeps {R} c (f : chunk -> option (R * chunk)) (Q : chunk -> R -> Prop) s size align r s' res :
  cfg_ok c -> ginv c s -> resp_ok c s size align r -> action_ok c f Q (malign s) ->
  (forall ch x ch1, f ch = Some (x, ch1) -> ch1 = ch) ->
  fast_or_slow c s size align f r = (s', res) ->
  transfer c s s' /\
  match res with
  | inl x => exists i ch, cur s' = Cur i /\ nth_error (chunks s') i = Some ch /\ Q ch x
  | inr _ => True
  end.
Proof.
  intros Hc Hg Hr Hf Hro H.
  destruct (fast_or_slow_cases_ginv c s size align f r s' res Hg H) as [(i & ch & x & ch1 & Ec & En & Ef & -> & ->)|Hslow].
  - pose proof (Hro _ _ _ Ef). subst ch1. rewrite (upd_chunks_same s i ch En).
    split; [exact (conj (frame_refl s) (conj Hg (fun q sz _ H => H)))|]. exists i, ch. split; [exact Ec|]. split; [exact En|].
    destruct (ginv_cur_chunk c s i ch Hg Ec En) as [Hok Hmp]. exact (proj2 (proj2 (proj2 (Hf ch x ch Hok Hmp Ef)))).
  - destruct (in_another_chunk_keeps c f Q size align s r s' res Hc Hg Hr Hf Hslow) as [K D].
    split; [exact K|]. destruct res; [exact D|exact I].
Qed.

Lemma raw_alloc_fast c s size align i ch p ch1 :
  cfg_ok c -> ginv c s -> valid_layout size align ->
  cur s = Cur i -> nth_error (chunks s) i = Some ch ->
  chunk_alloc c (malign s) ch size align = Some (p, ch1) ->
  alloc_result_ok c s (upd_chunks s (set_nth (chunks s) i ch1)) size align (inl p).
Proof.
  intros Hc Hg Hl Ec En Ef. pose proof Hg as (Hok & Hd & Hm & _).
  destruct (ginv_cur_chunk c s i ch Hg Ec En) as [Hchok Hmp].
  destruct (chunk_alloc_geom c _ ch size align p ch1 Hc Hchok Hm Hmp Hl Ef) as (G1 & G2 & G3 & G4 & G5 & G6 & G7).
  set (s' := upd_chunks s (set_nth (chunks s) i ch1)).
  assert (En' : nth_error (chunks s') i = Some ch1) by (apply nth_error_set_nth_eq; exact (nth_error_some_lt _ _ _ En)).
  pose proof (ginv_replace c s s' i ch ch1 Hok Hd Hm En G1 G2 G3 eq_refl Ec eq_refl) as Hg'.
  split; [repeat split|]. split; [exact Hg'|].
  assert (Hpl : forall q sz, 0 <= sz -> placed c s q sz -> placed c s' q sz /\ disjoint_rng q sz p size).
  { intros q sz Hsz (k & chk & Hk & Hin & Hside). rewrite Ec in Hside. destruct Hside as [Hki Hks].
    unfold placed. change (cur s') with (cur s). rewrite Ec. destruct (Nat.eq_dec k i) as [->|Hne].
    - rewrite En in Hk. injection Hk as <-. destruct (G7 q sz Hsz Hin (Hks eq_refl)) as [S1 S2].
      split; [|exact S2]. exists i, ch1.
      split; [exact En'|]. split; [exact (in_chunk_same_geom c _ _ _ _ G2 Hin)|]. split; [lia|intros _; exact S1].
    - assert (Hk' : nth_error (chunks s') k = Some chk) by (unfold s'; cbn [chunks upd_chunks]; rewrite nth_error_set_nth_neq by congruence; exact Hk).
      split; [exists k, chk; split; [exact Hk'|]; split; [exact Hin|]; split; [exact Hki|intros E; congruence]|].
      exact (placed_other_chunk_disjoint c (chunks s') k i chk ch1 q sz p size Hc (proj1 Hg') (proj1 (proj2 Hg')) Hne Hk' En' Hin G5). }
  split; [intros q sz Hsz Hq; apply (Hpl q sz Hsz Hq)|].
  split; [exact G4|]. split.
  - exists i, ch1. change (cur s') with (cur s). rewrite Ec.
    split; [exact En'|]. split; [exact G5|]. split; [lia|intros _; exact G6].
  - intros q sz Hsz Hq; apply (Hpl q sz Hsz Hq).
Qed.

(* The new block lies in a chunk after the one that was current, so it meets no range placed
   before. *)
Lemma in_another_chunk_post c s size align r s' res :
  cfg_ok c -> ginv c s -> valid_layout size align -> resp_ok c s size align r ->
  in_another_chunk c s (cur s) size align (fun ch => chunk_alloc c (malign s) ch size align) r = (s', res) ->
  alloc_result_ok c s s' size align res.
Proof.
  intros Hc Hg Hl Hr H. pose proof Hg as (_ & _ & Hm & _).
  destruct (in_another_chunk_keeps c _ _ size align s r s' res Hc Hg Hr
              (alloc_action_ok c (malign s) size align Hc Hm Hl) H) as ((Hfr & Hg' & Hpl) & Hres).
  split; [exact Hfr|]. split; [exact Hg'|]. split; [exact Hpl|].
  destruct res as [p|]; [|exact I].
  destruct Hres as (j & chj & Ej & Enj & (Hap & Hin & Hside)).
  split; [exact Hap|]. split.
  - exists j, chj. rewrite Ej. split; [exact Enj|]. split; [exact Hin|]. split; [lia|intros _; exact Hside].
  - intros q sz Hsz (k & chk & Hk & Hinq & Hs).
    destruct (cur s) as [i| |] eqn:Ec; try contradiction. destruct Hs as [Hki _].
    destruct (proj2 (in_another_chunk_shape _ _ _ _ _ _ _ _ _ H) i eq_refl (ginv_cur_lt c s i Hg Ec))
      as (Hsame & (j' & Ej' & Hij) & Hne).
    rewrite <- Hsame in Hk by exact Hki. rewrite Ej in Ej', Hne. injection Ej' as <-. specialize (Hne p eq_refl).
    destruct Hg' as (Hok' & Hd' & _).
    eapply (placed_other_chunk_disjoint c (chunks s') k j); try eassumption.
    intros ->. apply Hne. f_equal. lia.
Qed.

Theorem raw_alloc_post c s size align r s' res :
  cfg_ok c -> ginv c s -> valid_layout size align -> resp_ok c s size align r ->
  raw_alloc c s size align r = (s', res) ->
  alloc_result_ok c s s' size align res.
Proof.
  intros Hc Hg Hl Hr H.
  destruct (fast_or_slow_cases_ginv c s size align (fun ch => chunk_alloc c (malign s) ch size align) r s' res Hg H)
    as [(i & ch & p & ch1 & Ec & En & Ef & -> & ->)|Hslow].
  - eapply raw_alloc_fast; eassumption.
  - eapply in_another_chunk_post; eassumption.
Qed.

Theorem raw_alloc_slow_post c s size align r s' res :
  cfg_ok c -> ginv c s -> valid_layout size align -> resp_ok c s size align r ->
  raw_alloc_slow c s size align r = (s', res) ->
  alloc_result_ok c s s' size align res.
Proof. intros Hc Hg Hl Hr H. unfold raw_alloc_slow in H. eapply in_another_chunk_post; eassumption. Qed.

Lemma alloc_result_inv c s s1 size align res :
  inv c s -> alloc_result_ok c s s1 size align res -> inv c s1.
Proof.
  intros Hinv (Hfr & Hg1 & Hpl & _). exact (inv_transfer c s s1 Hinv (conj Hfr (conj Hg1 Hpl))).
Qed.

Lemma inv_add_allocated c s s1 n al p :
  inv c s -> alloc_result_ok c s s1 n al (inl p) -> 0 <= n -> inv c (fst (add_block s1 p n al)).
Proof.
  intros Hinv Hres Hn. pose proof (alloc_result_inv c s s1 n al (inl p) Hinv Hres) as Hinv1.
  destruct Hres as ((F1 & _) & _ & _ & Hap & Hpp & Hdisj).
  apply inv_add_block; [exact Hinv1|exact Hn|exact Hap|exact Hpp|].
  intros b Hin. rewrite F1 in Hin. destruct (inv_live_block c s b Hinv Hin) as (B1 & _ & B3). apply Hdisj; assumption.
Qed.

(* raw_grow, raw_shrink and WithoutShrink::shrink each do one of three things: hand the block back
   where it is, in an unchanged state (with a size satisfying K); move it inside the current chunk
   (its position goes to p, the block to q, with P p q); or allocate the new layout, by the fast
   or the slow path, and copy.  In each case at most one memmove, of `len` bytes, happens. *)
Inductive realloc_case (P : Z -> Z -> Prop) (K : Z -> Prop) (c : cfg) (s : arena) (ptr len nsize nalign : Z) (r : resp)
  : arena * (realloc_out + err) -> Prop :=
| RcKeep sz :
    divides nalign ptr = true -> K sz -> realloc_case P K c s ptr len nsize nalign r (s, inl (mkRO ptr sz false))
| RcInPlace p q m ub :
    P p q -> (m = mem s /\ q = ptr \/ m = mem_copy (mem s) ptr q len) ->
    realloc_case P K c s ptr len nsize nalign r (upd_mem (set_cur_pos s p) m, inl (mkRO q nsize ub))
| RcAlloc (y : arena * (Z + err)) :
    y = raw_alloc c s nsize nalign r \/ y = raw_alloc_slow c s nsize nalign r ->
    realloc_case P K c s ptr len nsize nalign r
      match y with
      | (t1, inl np) => let '(t2, ub) := copy_block t1 ptr np len true in (t2, inl (mkRO np nsize ub))
      | (t1, inr e) => (t1, inr e)
      end.

Lemma realloc_case_state (P : Z -> Z -> Prop) K c s ptr len nsize nalign r x (T : arena -> Prop) :
  (forall t m, T t -> T (upd_mem t m)) -> T s -> (forall p q, P p q -> T (set_cur_pos s p)) ->
  T (fst (raw_alloc c s nsize nalign r)) -> T (fst (raw_alloc_slow c s nsize nalign r)) ->
  realloc_case P K c s ptr len nsize nalign r x -> T (fst x).
Proof.
  intros Hm Hs Hp Ha Hsl [sz _ _|p q m ub HP _|y Hy]; cbn [fst].
  - exact Hs.
  - exact (Hm _ m (Hp p q HP)).
  - assert (Hy' : T (fst y)) by (destruct Hy as [-> | ->]; assumption).
    destruct y as [t1 [np|e]]; cbn [fst copy_block] in *; [apply Hm|]; exact Hy'.
Qed.

Lemma realloc_case_pos (P : Z -> Z -> Prop) K c s ptr len nsize nalign r p ub :
  P p ptr -> realloc_case P K c s ptr len nsize nalign r (set_cur_pos s p, inl (mkRO ptr nsize ub)).
Proof.
  intros HP. rewrite <- (upd_mem_same (set_cur_pos s p)), set_cur_pos_mem. apply RcInPlace; auto.
Qed.

Lemma realloc_case_copy (P : Z -> Z -> Prop) K c s ptr len nsize nalign r p q nonover :
  P p q ->
  realloc_case P K c s ptr len nsize nalign r
    (let '(s1, ub) := copy_block s ptr q len nonover in (set_cur_pos s1 p, inl (mkRO q nsize ub))).
Proof. intros HP. cbn [copy_block]. rewrite set_cur_pos_upd_mem. apply RcInPlace; auto. Qed.

(* grow in place: the newest block keeps its address (upwards) or slides down to end where it
   ended; p is the new position of its chunk *)
Definition grows_in_place (c : cfg) (s : arena) (ptr osize nsize nalign p q : Z) : Prop :=
  is_last c s ptr osize = true /\ exists ch, cur_chunk s = Some ch /\
  if up c then divides nalign ptr = true /\ nsize <= content_end c ch - ptr /\ q = ptr /\
               p = up_alignZ (ptr + nsize) (malign s)
  else q = p /\ p = down_alignZ (Z.max (ptr - (nsize - osize)) 0) (Z.max nalign (malign s)) /\
       content_start c ch <= p.

Lemma raw_grow_case c s ptr osize oalign nsize nalign r :
  realloc_case (grows_in_place c s ptr osize nsize nalign) (fun _ => False) c s ptr osize nsize nalign r
    (raw_grow c s ptr osize oalign nsize nalign r).
Proof.
  unfold raw_grow. cbv zeta. destruct (up c) eqn:Eup.
  - destruct (is_last c s ptr osize && divides nalign ptr) eqn:El; [|apply RcAlloc; auto].
    apply andb_prop in El. destruct El as [El Ed].
    destruct (is_last_spec c s _ _ El) as (ch & Ecc & _). rewrite Ecc.
    destruct (Z.leb_spec nsize (content_end c ch - ptr)) as [Hfit|_]; [|apply RcAlloc; auto].
    apply realloc_case_pos. split; [exact El|]. exists ch. split; [exact Ecc|]. rewrite Eup. auto.
  - destruct (is_last c s ptr osize) eqn:El; [|apply RcAlloc; auto].
    destruct (is_last_spec c s _ _ El) as (ch & Ecc & _). rewrite Ecc.
    destruct (Z.leb_spec (content_start c ch) (down_alignZ (Z.max (ptr - (nsize - osize)) 0) (Z.max nalign (malign s))))
      as [Hfit|_]; [|apply RcAlloc; auto].
    apply realloc_case_copy. split; [exact El|]. exists ch. split; [exact Ecc|]. rewrite Eup. auto.
Qed.

Lemma ws_shrink_case c s ptr osize oalign nsize nalign r :
  realloc_case (fun _ _ => False) (fun sz => sz = nsize) c s ptr (if fix_without_shrink c then nsize else osize)
    nsize nalign r (ws_shrink c s ptr osize oalign nsize nalign r).
Proof.
  unfold ws_shrink. destruct (divides nalign ptr) eqn:Ed; [apply RcKeep; auto|].
  apply (RcAlloc _ _ c s ptr _ nsize nalign r (raw_alloc c s nsize nalign r)). auto.
Qed.

(* shrink in place, under the SHRINKS setting, of the newest block: when its address satisfies the
   new alignment it stays (upwards) or slides up to end where it ended; otherwise the block is given
   back (dealloc_assume_last) and the new layout is allocated in the same chunk, if it has room *)
Definition shrinks_in_place (c : cfg) (s : arena) (ptr osize nsize nalign p q : Z) : Prop :=
  shrinks c = true /\ is_last c s ptr osize = true /\
  if divides nalign ptr
  then if up c then q = ptr /\ p = up_alignZ (ptr + nsize) (malign s)
       else q = p /\ p = down_alignZ (Z.max (ptr + osize - nsize) 0) (Z.max nalign (malign s))
  else exists ch ch1, cur_chunk (dealloc_assume_last c s ptr osize) = Some ch /\
         chunk_alloc c (malign s) ch nsize nalign = Some (q, ch1) /\ p = cpos ch1.

(* When the chunk has no room for the unfit block, the position is put back where it was before
   the slow path runs: it runs on the untouched arena. *)
Lemma raw_shrink_case c s ptr osize oalign nsize nalign r :
  realloc_case (shrinks_in_place c s ptr osize nsize nalign) (fun sz => sz = osize) c s ptr nsize nsize nalign r
    (raw_shrink c s ptr osize oalign nsize nalign r).
Proof.
  unfold raw_shrink. cbv zeta. destruct (divides nalign ptr) eqn:Ed; cbn [negb].
  - destruct (shrinks c) eqn:Es; cbn [negb orb]; [|apply RcKeep; auto].
    destruct (is_last c s ptr osize) eqn:El; cbn [negb]; [|apply RcKeep; auto].
    destruct (up c) eqn:Eup; [apply realloc_case_pos|apply realloc_case_copy];
      unfold shrinks_in_place; rewrite Ed, Eup; auto.
  - destruct (shrinks c) eqn:Es; cbn [andb]; [|apply RcAlloc; auto].
    destruct (is_last c s ptr osize) eqn:El; [|apply RcAlloc; auto].
    destruct (is_last_spec c s _ _ El) as (ch0 & Ecc0 & _). rewrite Ecc0.
    destruct (dealloc_assume_last_set c s ptr osize ch0 Ecc0) as (q0 & Es1). rewrite Es1.
    rewrite (cur_chunk_set_cur_pos s ch0 q0 Ecc0).
    destruct (chunk_alloc c (malign s) (set_pos ch0 q0) nsize nalign) as [[np ch1]|] eqn:Ea.
    + destruct (cur_chunk_spec _ _ (cur_chunk_set_cur_pos s ch0 q0 Ecc0)) as (i & Ec & En). rewrite Ec.
      rewrite (chunk_alloc_cur c _ _ _ nsize nalign np ch1 i Ec En Ea), set_cur_pos_twice.
      cbn [copy_block]. rewrite set_cur_pos_mem. apply RcInPlace; [|right; reflexivity].
      unfold shrinks_in_place. rewrite Ed, Es1, (cur_chunk_set_cur_pos s ch0 q0 Ecc0).
      split; [exact Es|]. split; [exact El|]. exists (set_pos ch0 q0), ch1. auto.
    + rewrite set_cur_pos_twice, (set_cur_pos_same s ch0 Ecc0). apply RcAlloc; auto.
Qed.

(* what a reallocation path must leave behind for the step to finish *)
Definition realloc_inv (c : cfg) (b : nat) (al : Z) (x : arena * (realloc_out + err)) : Prop :=
  match x with
  | (s1, inl ro) => inv c (fst (add_block (remove_block s1 b) (ro_ptr ro) (ro_size ro) al))
  | (s1, inr _) => inv c s1
  end.

Lemma divides_spec a x : 0 < a -> divides a x = true -> (a | x).
Proof. intros Ha H. unfold divides in H. apply Z.eqb_eq in H. apply Z.mod_divide; [lia|exact H]. Qed.

Section Realloc.
  Context (c : cfg) (s : arena) (b : nat) (blk : block)
          (Hc : cfg_ok c) (Hinv : inv c s) (Hf : find_block s b = Some blk).

  Lemma realloc_in_cur_chunk i ch x n al np :
    cur s = Cur i -> nth_error (chunks s) i = Some ch ->
    (if up c then bptr blk + bsize blk = cpos ch else bptr blk = cpos ch) ->
    0 <= n -> (al | x) -> in_chunk c ch x n -> (malign s | np) ->
    (if up c then bptr blk <= x /\ x + n <= np /\ np <= content_end c ch
     else np <= x /\ x + n <= bptr blk + bsize blk /\ content_start c ch <= np) ->
    inv c (fst (add_block (remove_block (set_cur_pos s np) b) x n al)).
  Proof.
    intros Ec En Hlast Hn Hal Hin Hmnp Hgeo.
    destruct (find_block_spec _ _ _ Hf) as [Hblk Hid]. pose proof (proj1 Hinv) as Hg.
    destruct (inv_live_block c s blk Hinv Hblk) as (C1 & _ & Cpl).
    assert (Hblkin : in_chunk c ch (bptr blk) (bsize blk)) by (eapply is_last_in_cur; eassumption).
    assert (Hrange : content_start c ch <= np <= content_end c ch).
    { clear - Hblkin Hin Hgeo Hn C1. destruct Hblkin, Hin. destruct (up c); lia. }
    (* blk is the newest block of its chunk: every other block lies behind it or in another chunk *)
    assert (Hothers : forall b', In b' (live (remove_block s b)) -> 0 < bsize b' ->
              (if up c then bptr b' + bsize b' <= bptr blk else bptr blk + bsize blk <= bptr b') \/
              (forall q m, in_chunk c ch q m -> disjoint_rng (bptr b') (bsize b') q m)).
    { intros b' Hb' Hpos'. apply In_remove_block in Hb'. destruct Hb' as [Hb'in Hne'].
      destruct (live_block_vs_cur c s i ch b' Hc Hinv Ec En Hb'in Hpos') as [Hs|Hoth]; [left|right; exact Hoth].
      assert (Hdj : disjoint2 b' blk)
        by (apply (In_ForallOrdPairs_disjoint (live s)); [apply Hinv|exact Hb'in|exact Hblk|congruence]).
      unfold disjoint2, disjoint_rng in Hdj. clear - Hs Hdj Hlast C1 Hpos'. destruct (up c); lia. }
    assert (Hinv' : inv c (remove_block (set_cur_pos s np) b)).
    { rewrite <- set_cur_pos_remove_block.
      apply (set_cur_pos_inv c (remove_block s b) i ch np); try assumption.
      - apply inv_filter. exact Hinv.
      - intros b' Hb' Hpos' Hinc'. destruct (Hothers b' Hb' Hpos') as [Hs|Hoth].
        + clear - Hs Hgeo Hn C1. destruct (up c); lia.
        + specialize (Hoth _ _ Hinc'). unfold disjoint_rng in Hoth. lia. }
    destruct (set_cur_pos_fields s i ch np Ec En) as [G1 G2].
    apply inv_add_block; [exact Hinv'|exact Hn|exact Hal| |].
    - exists i, (set_pos ch np). cbn [chunks cur remove_block upd_live]. rewrite G1, G2, Ec.
      split; [apply nth_error_set_nth_eq; eapply nth_error_some_lt; exact En|].
      split; [exact Hin|]. split; [lia|]. intros _ Hpn. unfold alloc_side. cbn [set_pos cpos].
      clear - Hgeo. destruct (up c); lia.
    - intros b' Hb'. cbn [live remove_block upd_live] in Hb'. rewrite (proj1 (set_cur_pos_frame s np)) in Hb'.
      destruct (Z_le_gt_dec (bsize b') 0) as [Hz|Hpos']; [unfold disjoint_rng; lia|].
      destruct (Hothers b' Hb' ltac:(lia)) as [Hs|Hoth]; [|exact (Hoth x n Hin)].
      clear - Hs Hgeo. unfold disjoint_rng. destruct (up c); lia.
  Qed.

  Lemma realloc_in_place_up i ch n al :
    up c = true -> cur s = Cur i -> nth_error (chunks s) i = Some ch -> bptr blk + bsize blk = cpos ch ->
    0 <= n -> (al | bptr blk) -> bptr blk + n <= content_end c ch ->
    inv c (fst (add_block (remove_block (set_cur_pos s (up_alignZ (bptr blk + n) (malign s))) b) (bptr blk) n al)).
  Proof.
    intros Eup Ec En Hlast Hn Hal Hfit.
    destruct (find_block_spec _ _ _ Hf) as [Hblk _].
    pose proof (proj1 Hinv) as Hg. pose proof Hg as (_ & _ & Hm & _).
    pose proof (min_align_pos _ Hm) as Hmpos.
    destruct (ginv_cur_chunk c s i ch Hg Ec En) as [[Hgeo _] _].
    pose proof (geom_bounds c Hc ch Hgeo) as (_ & _ & _ & _ & _ & He16 & _).
    destruct (inv_live_block c s blk Hinv Hblk) as (C1 & _ & Cpl).
    assert (Hblkin : in_chunk c ch (bptr blk) (bsize blk)).
    { eapply is_last_in_cur; try eassumption. rewrite Eup. exact Hlast. }
    pose proof (up_align_ge (bptr blk + n) (malign s) Hmpos) as Hnp1.
    assert (Hnp2 : up_alignZ (bptr blk + n) (malign s) <= content_end c ch)
      by (apply up_align_min; [exact Hmpos|exact (min_align_divides _ _ Hm He16)|exact Hfit]).
    apply (realloc_in_cur_chunk i ch (bptr blk) n al (up_alignZ (bptr blk + n) (malign s)) Ec En);
      rewrite ?Eup; try assumption.
    - destruct Hblkin. split; lia.
    - apply up_align_div; exact Hmpos.
    - repeat split; lia.
  Qed.

  (* bptr blk + bsize blk - n is the highest start that leaves room for n bytes below blk's end *)
  Lemma realloc_in_place_down i ch n al :
    up c = false -> cur s = Cur i -> nth_error (chunks s) i = Some ch -> bptr blk = cpos ch ->
    0 <= n -> pow2 al ->
    let na := down_alignZ (Z.max (bptr blk + bsize blk - n) 0) (Z.max al (malign s)) in
    content_start c ch <= na ->
    inv c (fst (add_block (remove_block (set_cur_pos s na) b) na n al)).
  Proof.
    intros Eup Ec En Hlast Hn Ha2 na Hfit.
    destruct (find_block_spec _ _ _ Hf) as [Hblk _].
    pose proof (proj1 Hinv) as Hg. pose proof Hg as (_ & _ & Hm & _).
    destruct (ginv_cur_chunk c s i ch Hg Ec En) as [[Hgeo _] _].
    pose proof (geom_bounds c Hc ch Hgeo) as (Hcs0 & _).
    destruct (inv_live_block c s blk Hinv Hblk) as (C1 & _ & Cpl).
    assert (Hblkin : in_chunk c ch (bptr blk) (bsize blk)).
    { eapply is_last_in_cur; try eassumption. rewrite Eup. exact Hlast. }
    assert (HA2 : pow2 (Z.max al (malign s))) by (apply pow2_max; [exact Ha2|exact (proj1 Hm)]).
    pose proof (pow2_pos _ HA2) as HApos.
    pose proof (down_align_le (Z.max (bptr blk + bsize blk - n) 0) _ HApos) as Hna1. fold na in Hna1.
    assert (Hdiv : forall a, pow2 a -> a <= Z.max al (malign s) -> (a | na)).
    { intros a Ha Hle. apply down_align_div_finer; [exact HApos|]. apply pow2_divide; assumption. }
    apply (realloc_in_cur_chunk i ch na n al na Ec En); rewrite ?Eup; try assumption.
    - apply Hdiv; [exact Ha2|lia].
    - destruct Hblkin. split; lia.
    - apply Hdiv; [exact (proj1 Hm)|lia].
    - repeat split; lia.
  Qed.

  Lemma readd_subblock n al :
    0 <= n <= bsize blk -> (al | bptr blk) -> inv c (fst (add_block (remove_block s b) (bptr blk) n al)).
  Proof.
    intros Hn Hal.
    destruct (remove_block_facts c s b blk Hinv Hf) as (Hinv1 & B1 & B2 & B3 & B4).
    apply inv_add_block; [exact Hinv1|exact (proj1 Hn)|exact Hal| |].
    - destruct B3 as (k & chk & Hk & [I1 I2] & Hs). exists k, chk. split; [exact Hk|]. split; [split; lia|].
      destruct (cur (remove_block s b)); try contradiction. destruct Hs as [Hki Hks]. split; [exact Hki|].
      intros E Hpos. specialize (Hks E ltac:(lia)). unfold alloc_side in *. destruct (up c); lia.
    - intros b' Hb'. specialize (B4 b' Hb'). unfold disjoint_rng in *. lia.
  Qed.

  Lemma realloc_case_inv (P : Z -> Z -> Prop) (K : Z -> Prop) len n al r x :
    valid_layout n al -> resp_ok c s n al r ->
    (forall sz, K sz -> 0 <= sz <= bsize blk) ->
    (forall p q, P p q -> inv c (fst (add_block (remove_block (set_cur_pos s p) b) q n al))) ->
    realloc_case P K c s (bptr blk) len n al r x -> realloc_inv c b al x.
  Proof.
    intros Hl Hr HK HP [sz Hd Hk|p q m ub Hp _|[s1 res] Hy].
    - apply (readd_subblock sz al (HK sz Hk)).
      apply divides_spec; [exact (pow2_pos _ (proj1 Hl))|exact Hd].
    - unfold realloc_inv. cbn [ro_ptr ro_size].
      eapply inv_same_shape; [apply same_shape_add_block, same_shape_remove_block, same_shape_upd_mem|].
      exact (HP p q Hp).
    - assert (Hres : alloc_result_ok c s s1 n al res).
      { destruct Hy as [Hy|Hy]; symmetry in Hy; [eapply raw_alloc_post|eapply raw_alloc_slow_post];
          try eassumption; exact (proj1 Hinv). }
      destruct res as [np|e]; [|exact (alloc_result_inv c s s1 n al _ Hinv Hres)].
      unfold copy_block, realloc_inv. cbn [ro_ptr ro_size].
      eapply inv_same_shape; [apply same_shape_add_block, same_shape_remove_block, same_shape_upd_mem|].
      apply (inv_add_allocated c (remove_block s b) (remove_block s1 b));
        [apply inv_filter; exact Hinv| |exact (proj1 (proj2 Hl))].
      destruct Hres as ((F1 & F) & H). split; [|exact H]. split; [|exact F].
      unfold remove_block. cbn [live upd_live]. rewrite F1. reflexivity.
  Qed.

  Lemma raw_grow_inv n al r :
    valid_layout n al -> resp_ok c s n al r ->
    realloc_inv c b al (raw_grow c s (bptr blk) (bsize blk) (balign blk) n al r).
  Proof.
    intros Hl Hr. pose proof Hl as (Ha2 & Hn & _).
    refine (realloc_case_inv _ _ _ n al r _ Hl Hr (fun sz (F : False) => match F with end) _
              (raw_grow_case c s _ _ _ n al r)).
    intros p q (El & ch & Ecc & Hp).
    destruct (is_last_spec c s _ _ El) as (ch' & Ecc' & Hlast). rewrite Ecc in Ecc'. injection Ecc' as <-.
    destruct (cur_chunk_spec s ch Ecc) as (i & Ec & En).
    destruct (up c) eqn:Eup.
    - destruct Hp as (Ed & Hfit & -> & ->).
      apply (realloc_in_place_up i ch n al); try assumption; [|lia].
      apply divides_spec; [exact (pow2_pos _ Ha2)|exact Ed].
    - destruct Hp as (-> & -> & Hfit). replace (bptr blk - (n - bsize blk)) with (bptr blk + bsize blk - n) in * by lia.
      apply (realloc_in_place_down i ch n al); assumption.
  Qed.

  (* shrink_unfit on the newest block, with room in its chunk, is a fast-path allocation in the arena
     without the block *)
  Lemma shrink_unfit_replaced ch ch1 n al q :
    valid_layout n al -> is_last c s (bptr blk) (bsize blk) = true ->
    cur_chunk (dealloc_assume_last c s (bptr blk) (bsize blk)) = Some ch ->
    chunk_alloc c (malign s) ch n al = Some (q, ch1) ->
    inv c (fst (add_block (remove_block (set_cur_pos s (cpos ch1)) b) q n al)).
  Proof.
    intros Hl El Ecc1 Eca. set (s1 := dealloc_assume_last c s (bptr blk) (bsize blk)) in *.
    destruct (remove_block_facts c s b blk Hinv Hf) as (Hinv' & B1 & _ & B3 & B4).
    pose proof (dealloc_last_inv c (remove_block s b) _ _ Hc Hinv' B1 B3 B4 El) as Hinv1.
    rewrite dealloc_assume_last_remove_block in Hinv1. fold s1 in Hinv1.
    destruct (is_last_spec c s _ _ El) as (ch0 & Ecc & _).
    destruct (dealloc_assume_last_set c s (bptr blk) (bsize blk) ch0 Ecc) as [p1 Es1]. fold s1 in Es1.
    destruct (cur_chunk_spec s1 ch Ecc1) as (i & Ec1 & En1).
    assert (Hm1 : malign (remove_block s1 b) = malign s).
    { unfold malign. change (aligns (remove_block s1 b)) with (aligns s1).
      rewrite Es1, set_cur_pos_aligns. reflexivity. }
    assert (Hres : alloc_result_ok c (remove_block s1 b)
                     (upd_chunks (remove_block s1 b) (set_nth (chunks s1) i ch1)) n al (inl q)).
    { apply (raw_alloc_fast c (remove_block s1 b) n al i ch q ch1 Hc (proj1 Hinv1) Hl Ec1 En1).
      rewrite Hm1. exact Eca. }
    replace (set_cur_pos s (cpos ch1)) with (upd_chunks s1 (set_nth (chunks s1) i ch1))
      by (rewrite (chunk_alloc_cur c _ s1 ch n al q ch1 i Ec1 En1 Eca), Es1; apply set_cur_pos_twice).
    exact (inv_add_allocated c _ _ n al q Hinv1 Hres (proj1 (proj2 Hl))).
  Qed.

  Lemma raw_shrink_inv n al r :
    valid_layout n al -> n <= bsize blk -> resp_ok c s n al r ->
    realloc_inv c b al (raw_shrink c s (bptr blk) (bsize blk) (balign blk) n al r).
  Proof.
    intros Hl Hle Hr. pose proof Hl as (Ha2 & Hn & _).
    refine (realloc_case_inv _ _ _ n al r _ Hl Hr _ _ (raw_shrink_case c s _ _ _ n al r));
      [intros sz ->; lia|].
    intros p q (_ & El & Hp).
    destruct (is_last_spec c s _ _ El) as (ch & Ecc & Hlast). destruct (cur_chunk_spec s ch Ecc) as (i & Ec & En).
    destruct (divides al (bptr blk)) eqn:Ediv;
      [|destruct Hp as (ch' & ch1 & Ecc1 & Eca & ->); eapply shrink_unfit_replaced; eassumption].
    apply (divides_spec _ _ (pow2_pos _ Ha2)) in Ediv.
    pose proof (proj1 Hinv) as Hg. pose proof Hg as (_ & _ & Hm & _).
    destruct (ginv_cur_chunk c s i ch Hg Ec En) as [[_ Hpos] Hmp].
    destruct (up c) eqn:Eup; destruct Hp as [-> ->].
    - apply (realloc_in_place_up i ch n al); try assumption. lia.
    - apply (realloc_in_place_down i ch n al); try assumption.
      assert (HA2 : pow2 (Z.max al (malign s))) by (apply pow2_max; [exact Ha2|exact (proj1 Hm)]).
      assert (HAp : (Z.max al (malign s) | bptr blk)).
      { destruct (Z.max_spec al (malign s)) as [[_ ->]|[_ ->]]; [rewrite Hlast; exact Hmp|exact Ediv]. }
      apply Z.le_trans with (bptr blk); [lia|].
      apply down_align_max; [exact (pow2_pos _ HA2)|exact HAp|lia].
  Qed.

  Lemma ws_shrink_inv n al r :
    valid_layout n al -> n <= bsize blk -> resp_ok c s n al r ->
    realloc_inv c b al (ws_shrink c s (bptr blk) (bsize blk) (balign blk) n al r).
  Proof.
    intros Hl Hle Hr. pose proof Hl as (_ & Hn & _).
    refine (realloc_case_inv _ _ _ n al r _ Hl Hr _ _ (ws_shrink_case c s _ _ _ n al r));
      [intros sz ->; lia|intros p q []].
  Qed.
End Realloc.

(* a checkpoint the caller may still reset to: the documented safety contract of reset_to.  It is
   a hypothesis of every statement about OResetTo; no file derives it for checkpoints taken by
   OCheckpoint. *)
Definition cp_valid (c : cfg) (s : arena) (cp : checkpoint) : Prop :=
  match cp_state cp with
  | Cur j => exists ch, nth_error (chunks s) j = Some ch /\
      content_start c ch <= cp_addr cp <= content_end c ch /\ (malign s | cp_addr cp) /\
      (exists i, cur s = Cur i /\ (j <= i)%nat) /\
      (forall b, In b (live s) -> (born b <= cp_epoch cp)%nat ->
         exists k chk, nth_error (chunks s) k = Some chk /\ in_chunk c chk (bptr b) (bsize b) /\ (k <= j)%nat /\
           (k = j -> 0 < bsize b -> if up c then bptr b + bsize b <= cp_addr cp else cp_addr cp <= bptr b))
  | Unalloc => guaranteed c = false /\ forall b, In b (live s) -> (born b <= cp_epoch cp)%nat -> False
  | Claimed => False
  end.

(* reset_to for an arbitrary set of surviving blocks (OResetTo keeps those born before the
   checkpoint; the Err path of alloc_try_with keeps all: it has allocated none) *)
Definition cp_valid_gen (c : cfg) (s : arena) (cp : checkpoint) (keep : block -> bool) : Prop :=
  match cp_state cp with
  | Cur j => exists ch, nth_error (chunks s) j = Some ch /\
      content_start c ch <= cp_addr cp <= content_end c ch /\ (malign s | cp_addr cp) /\
      (forall b, In b (live s) -> keep b = true -> placed_at c (chunks s) j (cp_addr cp) (bptr b) (bsize b))
  | Unalloc => forall b, In b (live s) -> keep b = true -> False
  | Claimed => False
  end.

Definition op_ok (c : cfg) (s : arena) (o : op) : Prop :=
  match o with
  | OAlloc _ _ size align _ => valid_layout size align
  | OTryErr _ _ size align => valid_layout size align
  | OGrow _ _ b nsize nalign _ =>
    valid_layout nsize nalign /\ forall blk, find_block s b = Some blk -> bsize blk <= nsize
  | OShrink _ _ b nsize nalign =>
    valid_layout nsize nalign /\ forall blk, find_block s b = Some blk -> nsize <= bsize blk
  | OResetTo _ cp => cp_valid c s cp
  | OReserve _ n => 0 <= n
  | OReset | OResetToStart | ODrop => depth s = 0%nat
  | OUnclaim => (0 < depth s)%nat
  | _ => True
  end.

(* the layout for which an operation may ask the base allocator for a chunk *)
Definition op_layout (c : cfg) (s : arena) (o : op) : option (Z * Z) :=
  match o with
  | OAlloc _ _ size align _ => Some (size, align)
  | OGrow _ _ _ nsize nalign _ => Some (nsize, nalign)
  | OShrink _ _ _ nsize nalign => Some (nsize, nalign)
  | OTryErr _ _ size align => Some (size, align)
  | OReserve _ n =>
    match cur_chunk s with
    | Some ch => Some (n - (remaining_in c ch + sumZ (map (capacity c) (chunks_after s))), 1)
    | None => Some (n, 1)
    end
  | _ => None
  end.

Definition op_resp_ok (c : cfg) (s : arena) (o : op) (r : resp) : Prop :=
  match op_layout c s o with
  | Some (sz, al) => resp_ok c s sz al r
  | None => True
  end.

Lemma step_inv_alloc c s0 h ws size align zeroed r :
  cfg_ok c -> inv c s0 -> valid_layout size align -> resp_ok c s0 size align r ->
  inv c (fst (step c s0 (OAlloc h ws size align zeroed) r)).
Proof.
  intros Hc Hinv Hl Hr. apply inv_tick in Hinv.
  apply (resp_ok_ext c s0 (tick s0)) in Hr; [|reflexivity].
  cbn [step]. set (s := tick s0) in *.
  destruct (negb (is_top s h)); [exact Hinv|].
  destruct (raw_alloc c s size align r) as [s1 res] eqn:Ea.
  pose proof (raw_alloc_post c s size align r s1 res Hc (proj1 Hinv) Hl Hr Ea) as Hres.
  destruct res as [p|e]; [|exact (alloc_result_inv c s s1 size align _ Hinv Hres)].
  refine (inv_same_shape c _ _ (same_shape_add_block s1 _ _ _ _ _)
            (inv_add_allocated c s s1 size align p Hinv Hres (proj1 (proj2 Hl)))).
  destruct zeroed; [apply same_shape_upd_mem|apply same_shape_refl].
Qed.

Lemma step_inv_dealloc c s0 h ws b r :
  cfg_ok c -> inv c s0 -> inv c (fst (step c s0 (ODealloc h ws b) r)).
Proof.
  intros Hc Hinv. apply inv_tick in Hinv. cbn [step]. set (s := tick s0) in *.
  destruct (find_block s b) as [blk|] eqn:Ef; [|exact Hinv].
  destruct (remove_block_facts c s b blk Hinv Ef) as (Hinv1 & B1 & B2 & B3 & B4).
  destruct (negb (is_top s h) || has_wrapper WDealloc ws); [exact Hinv1|].
  cbn [fst]. unfold raw_dealloc. destruct (negb (deallocates c)); [exact Hinv1|].
  destruct (is_last c (remove_block s b) (bptr blk) (bsize blk)) eqn:El; [|exact Hinv1].
  apply dealloc_last_inv; assumption.
Qed.

Lemma step_inv_grow c s0 h ws b nsize nalign zeroed r :
  cfg_ok c -> inv c s0 -> valid_layout nsize nalign ->
  resp_ok c s0 nsize nalign r ->
  inv c (fst (step c s0 (OGrow h ws b nsize nalign zeroed) r)).
Proof.
  intros Hc Hinv Hl Hr. apply inv_tick in Hinv.
  apply (resp_ok_ext c s0 (tick s0)) in Hr; [|reflexivity].
  cbn [step]. set (s := tick s0) in *.
  destruct (find_block s b) as [blk|] eqn:Ef; [|exact Hinv].
  destruct (negb (is_top s h)); [exact Hinv|].
  pose proof (raw_grow_inv c s b blk Hc Hinv Ef nsize nalign r Hl Hr) as H.
  destruct (raw_grow c s (bptr blk) (bsize blk) (balign blk) nsize nalign r) as [s1 [ro|e]]; [|exact H].
  (* zero-filling the new tail writes memory only *)
  refine (inv_same_shape c _ _ (same_shape_add_block _ _ _ _ _ (same_shape_remove_block s1 _ b _)) H).
  destruct zeroed; [apply same_shape_upd_mem|apply same_shape_refl].
Qed.

Lemma step_inv_shrink c s0 h ws b nsize nalign r :
  cfg_ok c -> inv c s0 -> valid_layout nsize nalign ->
  (forall blk, find_block s0 b = Some blk -> nsize <= bsize blk) ->
  resp_ok c s0 nsize nalign r ->
  inv c (fst (step c s0 (OShrink h ws b nsize nalign) r)).
Proof.
  intros Hc Hinv Hl Hle Hr. apply inv_tick in Hinv.
  apply (resp_ok_ext c s0 (tick s0)) in Hr; [|reflexivity].
  change (find_block s0 b) with (find_block (tick s0) b) in Hle.
  cbn [step]. set (s := tick s0) in *.
  destruct (find_block s b) as [blk|] eqn:Ef; [|exact Hinv].
  specialize (Hle blk eq_refl). pose proof Hl as (Ha2 & _).
  destruct (negb (is_top s h) && negb (has_wrapper WShrink ws && divides nalign (bptr blk))).
  { destruct (divides nalign (bptr blk)) eqn:Ediv; [|exact Hinv].
    apply (readd_subblock c s b blk Hinv Ef (bsize blk) nalign).
    - pose proof (proj1 (inv_live_block c s blk Hinv (proj1 (find_block_spec _ _ _ Ef)))). lia.
    - apply divides_spec; [exact (pow2_pos _ Ha2)|exact Ediv]. }
  destruct (has_wrapper WShrink ws).
  - pose proof (ws_shrink_inv c s b blk Hc Hinv Ef nsize nalign r Hl Hle Hr) as H.
    destruct (ws_shrink c s (bptr blk) (bsize blk) (balign blk) nsize nalign r) as [s1 [ro|e]]; exact H.
  - pose proof (raw_shrink_inv c s b blk Hc Hinv Ef nsize nalign r Hl Hle Hr) as H.
    destruct (raw_shrink c s (bptr blk) (bsize blk) (balign blk) nsize nalign r) as [s1 [ro|e]]; exact H.
Qed.

Lemma step_inv_reset c s0 r : cfg_ok c -> inv c s0 -> inv c (fst (step c s0 OReset r)).
Proof.
  intros Hc Hinv. apply inv_tick in Hinv. cbn [step]. set (s := tick s0) in *.
  pose proof Hinv as ((Hok & Hd & Hm & Hcur) & _).
  pose proof (inv_clear_live c s Hinv) as Hlive0.
  cbn [cur upd_live]. destruct (cur s) as [i| |] eqn:Ec; [|exact Hlive0|exact Hlive0].
  cbn [chunks upd_live]. destruct (rev (chunks s)) as [|lst t] eqn:Er; [exact Hlive0|].
  cbn [fst].
  assert (Hin : In lst (chunks s)) by (apply in_rev; rewrite Er; left; reflexivity).
  rewrite Forall_forall in Hok. destruct (Hok lst Hin) as [Hg _].
  destruct (log_events_fields (upd_live s []) (reset_events c (upd_live s []))) as (A1 & A2 & A3 & A4 & A5 & _).
  apply (inv_ext c (upd_cur (upd_chunks (upd_live s []) [reset_chunk c lst]) (Cur 0))); try reflexivity.
  - cbn [aligns upd_cur upd_chunks]. rewrite A3. reflexivity.
  - cbn [live upd_cur upd_chunks]. rewrite A4. reflexivity.
  - cbn [nextid upd_cur upd_chunks]. rewrite A5. reflexivity.
  - destruct (fresh_pos_ok c Hc lst Hg) as [Hrok H16]. apply inv_no_live; [|reflexivity].
    apply (ginv_single c _ (reset_chunk c lst)); try reflexivity; [exact Hrok|exact Hm|exact (min_align_divides _ _ Hm H16)].
Qed.

Lemma step_inv_reset_to_start c s0 r : cfg_ok c -> inv c s0 -> inv c (fst (step c s0 OResetToStart r)).
Proof.
  intros Hc Hinv. apply inv_tick in Hinv. cbn [step]. set (s := tick s0) in *.
  pose proof (inv_clear_live c s Hinv) as Hlive0. destruct Hinv as ((Hok & Hd & Hm & _) & _).
  cbn [cur upd_live]. destruct (cur s) as [i| |]; [|exact Hlive0|exact Hlive0].
  cbn [chunks upd_live]. destruct (chunks s) as [|ch rest] eqn:Ech; [exact Hlive0|].
  inversion Hok as [|x xs [Hg _] Hrest]; subst.
  destruct (fresh_pos_ok c Hc ch Hg) as [Hrok H16].
  apply inv_no_live; [|reflexivity].
  apply (ginv_intro c _ 0%nat (reset_chunk c ch)); try reflexivity; [constructor; assumption| |exact Hm|exact (min_align_divides _ _ Hm H16)].
  eapply (chunks_disjoint_same_geom (ch :: rest)); [|exact Hd].
  constructor; [apply same_geom_set_pos|apply Forall2_same_geom_refl].
Qed.

Lemma step_inv_drop c s0 r : inv c s0 -> inv c (fst (step c s0 ODrop r)).
Proof.
  intros Hinv. apply inv_tick in Hinv. cbn [step]. set (s := tick s0) in *.
  pose proof (inv_clear_live c s Hinv) as Hlive0.
  destruct (Nat.eqb (depth (upd_live s [])) 0); [|exact Hlive0]. cbn [fst].
  destruct (log_events_fields (upd_live s []) (drop_events c (upd_live s []))) as (_ & _ & A3 & A4 & _).
  destruct Hinv as ((_ & _ & Hm & _) & _).
  apply inv_no_live; [|exact A4].
  apply ginv_no_chunks; try reflexivity. unfold malign. cbn [aligns upd_cur upd_chunks]. rewrite A3. exact Hm.
Qed.

Lemma reset_to_chunk_inv c s j ch addr keep :
  winv c s -> nth_error (chunks s) j = Some ch ->
  content_start c ch <= addr <= content_end c ch -> (malign s | addr) ->
  (forall b, In b (live s) -> keep b = true -> placed_at c (chunks s) j addr (bptr b) (bsize b)) ->
  inv c (upd_cur (upd_chunks (upd_live s (filter keep (live s))) (set_nth (chunks s) j (set_pos ch addr))) (Cur j)).
Proof.
  intros Hw En Hrng Hmal Hblocks.
  apply (inv_rewind c (upd_live s (filter keep (live s))) j ch addr (winv_filter c s keep Hw) En Hrng Hmal).
  intros b Hin. apply filter_In in Hin. exact (Hblocks b (proj1 Hin) (proj2 Hin)).
Qed.

Lemma do_reset_to_winv c s cp keep :
  cfg_ok c -> winv c s -> cp_valid_gen c s cp keep ->
  inv c (do_reset_to c (upd_live s (filter keep (live s))) cp).
Proof.
  intros Hc Hinv Hcp.
  unfold do_reset_to. unfold cp_valid_gen in Hcp. destruct (cp_state cp) as [j| |]; [| |contradiction].
  - destruct Hcp as (ch & En & Hrng & Hmal & Hblocks). cbn [chunks upd_live]. rewrite En.
    apply reset_to_chunk_inv; assumption.
  - pose proof Hinv as ((Hok & Hd & Hm & Hcur) & _).
    cbn [cur chunks upd_live]. destruct (cur s) as [i| |] eqn:Ec; [| |contradiction].
    + destruct (nth_error (chunks s) 0) as [ch|] eqn:En.
      2:{ destruct Hcur as (chi & Eni). apply nth_error_None in En. apply nth_error_some_lt in Eni. lia. }
      pose proof (Forall_nth_error _ _ _ _ Hok En) as [Hg _].
      destruct (fresh_pos_ok c Hc ch Hg) as [[_ Hrng] H16].
      pose proof (reset_to_chunk_inv c s 0 ch (fresh_pos c ch) keep Hinv En Hrng) as Hi.
      destruct (chunks s) as [|ch0 rest]; [discriminate|]. injection En as ->. apply Hi.
      * exact (min_align_divides _ _ Hm H16).
      * intros b Hin Hk. destruct (Hcp b Hin Hk).
    + assert (Hnil : filter keep (live s) = []).
      { apply filter_nil_all. intros b Hin. destruct (keep b) eqn:E; [|reflexivity]. destruct (Hcp b Hin E). }
      rewrite Hnil. apply inv_no_live; [|reflexivity]. apply ginv_no_chunks; assumption.
Qed.

Lemma step_reset_to_from_winv c s1 h cp r :
  cfg_ok c -> winv c s1 -> cp_valid c s1 cp -> inv c (fst (step c s1 (OResetTo h cp) r)).
Proof.
  intros Hc Hw Hcp. cbn [step fst].
  assert (Hw' : winv c (tick s1)) by (apply (winv_ext c s1); try reflexivity; [apply Hw|exact Hw]).
  apply (do_reset_to_winv c (tick s1) cp (fun b => Nat.leb (born b) (cp_epoch cp)) Hc Hw').
  unfold cp_valid in Hcp. unfold cp_valid_gen. destruct (cp_state cp) as [j| |]; [| |exact Hcp].
  - destruct Hcp as (ch & En & Hrng & Hmal & _ & Hblocks). exists ch. split; [exact En|]. split; [exact Hrng|]. split; [exact Hmal|].
    intros b Hin Hk. apply Nat.leb_le in Hk. exact (Hblocks b Hin Hk).
  - destruct Hcp as [_ Hnone]. intros b Hin Hk. apply Nat.leb_le in Hk. exact (Hnone b Hin Hk).
Qed.

Lemma step_inv_reset_to c s0 h cp r :
  cfg_ok c -> inv c s0 -> cp_valid c s0 cp -> inv c (fst (step c s0 (OResetTo h cp) r)).
Proof. intros Hc Hinv Hcp. apply step_reset_to_from_winv; [exact Hc|apply inv_winv; exact Hinv|exact Hcp]. Qed.

Lemma step_inv_reserve c s0 h n r :
  cfg_ok c -> inv c s0 -> op_resp_ok c s0 (OReserve h n) r ->
  inv c (fst (step c s0 (OReserve h n) r)).
Proof.
  intros Hc Hinv Hr. apply inv_tick in Hinv.
  change (op_resp_ok c (tick s0) (OReserve h n) r) in Hr.
  cbn [step]. set (s := tick s0) in *.
  destruct (negb (is_top s h)); [exact Hinv|].
  unfold op_resp_ok, op_layout, cur_chunk in Hr. pose proof (proj1 Hinv) as Hg.
  destruct (cur s) as [i| |] eqn:Ec; [| |exact Hinv].
  - destruct (ginv_cur c s i Hg Ec) as (ch & En & _ & Hmp). rewrite En in *.
    destruct (n <=? remaining_in c ch + sumZ (map (capacity c) (chunks_after s))); [exact Hinv|].
    set (rest := n - (remaining_in c ch + sumZ (map (capacity c) (chunks_after s)))) in *.
    destruct (IMAX <? rest); [exact Hinv|].
    (* granted or not, chunk i stays current: a new chunk is appended behind the last one *)
    destruct (grow_arena c s rest 1 r) as [s1 e] eqn:Eg.
    destruct (grow_arena_ginv c s rest 1 r s1 e Hc Hg Hr Eg) as (Hok1 & Hd1 & Hm1 & _).
    destruct (grow_arena_shape c s rest 1 r s1 e Eg) as (Hfr & Hs1).
    assert (Hsame : forall k, (k <= i)%nat -> nth_error (chunks s1) k = nth_error (chunks s) k).
    { intros k Hk. destruct e; [destruct Hs1 as [-> _]; reflexivity|].
      destruct Hs1 as (n0 & addr & g & _ & _ & -> & _). apply nth_error_app1. apply nth_error_some_lt in En. lia. }
    enough (inv c (upd_cur s1 (Cur i))) by (destruct e; assumption).
    apply (inv_transfer c s _ Hinv). split; [exact Hfr|]. split.
    + apply (ginv_intro c (upd_cur s1 (Cur i)) i ch Hok1 Hd1 Hm1 eq_refl); [rewrite <- En; apply Hsame; lia|].
      change (malign (upd_cur s1 (Cur i))) with (malign s1). rewrite (frame_malign _ _ Hfr). exact Hmp.
    + intros q sz _. apply (placed_mono c s _ i i); [exact Ec|reflexivity|lia|exact Hsame].
  - destruct (IMAX <? n); [exact Hinv|].
    destruct (grow_arena c s n 1 r) as [s1 e] eqn:Eg.
    enough (inv c s1) by (destruct e; assumption).
    apply (inv_transfer c s s1 Hinv).
    split; [apply (grow_arena_shape c s n 1 r s1 e Eg)|]. split; [eapply grow_arena_ginv; eassumption|].
    intros q sz _ (k & chk & _ & _ & Hs). rewrite Ec in Hs. contradiction.
Qed.

Definition is_realloc (o : op) : bool :=
  match o with
  | OTryErr _ _ _ _ | OAlignPush _ _ | OAlignPop _ | OPrepare _ _ _ _ _ | OWriteRaw _ _ _
  | OCommit _ _ _ _ _ _ _ _ => true
  | _ => false
  end.

(* is_realloc is a misnomer: it is true of the operations of ArenaExt.v and ArenaInv2.v (OTryErr,
   the alignment regions, prepare, raw writes, commit); ArenaInv2.step_inv covers all *)
Theorem step_inv_partial c s o r :
  cfg_ok c -> inv c s -> is_realloc o = false -> op_ok c s o -> op_resp_ok c s o r ->
  inv c (fst (step c s o r)).
Proof.
  intros Hc Hinv Hnr Hok Hr. destruct o; try discriminate Hnr.
  - apply step_inv_alloc; assumption.
  - apply step_inv_dealloc; assumption.
  - destruct Hok as [Hl Hge]. apply step_inv_grow; assumption.
  - destruct Hok as [Hl Hle]. apply step_inv_shrink; assumption.
  - (* OFill *) apply inv_tick in Hinv. cbn [step]. destruct (find_block (tick s) b); cbn [fst]; [|exact Hinv].
    eapply inv_ext; [..|exact Hinv]; reflexivity.
  - (* OCheckpoint *) exact (inv_tick c s Hinv).
  - apply step_inv_reset_to; assumption.
  - apply step_inv_reset; assumption.
  - apply step_inv_reset_to_start; assumption.
  - apply step_inv_reserve; assumption.
  - (* OStats *) apply inv_tick in Hinv. cbn [step]. destruct (is_top (tick s) h); exact Hinv.
  - (* OClaim *) apply inv_tick in Hinv. cbn [step]. destruct (is_top (tick s) h); cbn [fst]; [|exact Hinv].
    eapply inv_ext; [..|exact Hinv]; reflexivity.
  - (* OUnclaim *) apply inv_tick in Hinv. cbn [step fst]. eapply inv_ext; [..|exact Hinv]; reflexivity.
  - apply step_inv_drop; assumption.
Qed.

Fixpoint run (c : cfg) (s : arena) (ops : list (op * resp)) : arena :=
  match ops with
  | [] => s
  | (o, r) :: rest => run c (fst (step c s o r)) rest
  end.

Fixpoint run_ok (c : cfg) (s : arena) (ops : list (op * resp)) : Prop :=
  match ops with
  | [] => True
  | (o, r) :: rest =>
    is_realloc o = false /\ op_ok c s o /\ op_resp_ok c s o r /\ run_ok c (fst (step c s o r)) rest
  end.

Theorem run_inv_partial c ops : forall s,
  cfg_ok c -> inv c s -> run_ok c s ops -> inv c (run c s ops).
Proof.
  induction ops as [|[o r] rest IH]; intros s Hc Hinv Hok; [exact Hinv|].
  destruct Hok as (H1 & H2 & H3 & H4). cbn [run]. apply IH; [exact Hc| |exact H4].
  apply step_inv_partial; assumption.
Qed.

Lemma inv_unallocated c m : valid_min_align m -> inv c (init_unallocated m).
Proof.
  intros Hm. apply inv_no_live; [|reflexivity]. apply ginv_no_chunks; [exact Hm|reflexivity..].
Qed.

(* what the invariant says about every live block (the statement of C01) *)
Theorem inv_live_blocks c s :
  cfg_ok c -> inv c s ->
  (forall b, In b (live s) ->
     (balign b | bptr b) /\ 0 <= bsize b /\
     exists ch, In ch (chunks s) /\
       cbase ch <= bptr b /\ bptr b + bsize b <= cbase ch + cgranted ch /\
       content_start c ch <= bptr b /\ bptr b + bsize b <= content_end c ch) /\
  (forall a b, In a (live s) -> In b (live s) -> bid a <> bid b ->
     0 < bsize a -> 0 < bsize b ->
     bptr a + bsize a <= bptr b \/ bptr b + bsize b <= bptr a).
Proof.
  intros Hc Hinv. pose proof Hinv as ((Hok & _) & _ & Hd & _). split.
  - intros b Hin. destruct (inv_live_block c s b Hinv Hin) as (B1 & B2 & (k & chk & Hk & Hinc & _)).
    split; [exact B2|]. split; [exact B1|]. exists chk. split; [eapply nth_error_In; exact Hk|].
    pose proof (Forall_nth_error _ _ _ _ Hok Hk) as [Gk _].
    pose proof (chunk_range_in_granted c chk _ _ Hc Gk Hinc) as [R1 R2].
    destruct Hinc as [I1 I2]. repeat split; assumption.
  - intros a b Ha Hb' Hne Hsa Hsb.
    pose proof (In_ForallOrdPairs_disjoint _ a b Hd Ha Hb' Hne) as Hgen. unfold disjoint2, disjoint_rng in Hgen. lia.
Qed.
