(* ArenaWrites.v — C05: every byte the arena itself writes (zeroing, the copies of grow / shrink /
   commit, fill through a block) lies inside a block it was granted by the base allocator and
   still holds.  (Writes to the chunk headers are not modelled; OWriteRaw is the user's own write
   into a range it was handed.) *)
From Coq Require Import ZArith List Lia Bool.
From BS Require Import Word Arena ArenaInv ArenaMem ArenaMem2 ArenaExt ArenaInv2.
Import ListNotations.
Open Scope Z_scope.

Definition in_granted (s : arena) (a : Z) : Prop :=
  exists ch, In ch (chunks s) /\ cbase ch <= a < cbase ch + cgranted ch.

Lemma placed_in_granted c s p sz a :
  cfg_ok c -> Forall (chunk_ok c) (chunks s) -> placed c s p sz -> p <= a < p + sz -> in_granted s a.
Proof.
  intros Hc Hok (k & ch & En & (H1 & H2) & _) Ha.
  pose proof (Forall_nth_error _ _ _ _ Hok En) as [Hg _].
  pose proof (geom_bounds c Hc ch Hg) as (_ & _ & _ & _ & _ & _ & B1 & B2).
  destruct Hg as (_ & _ & _ & _ & _ & _ & G & _).
  exists ch. split; [eapply nth_error_In; exact En|]. lia.
Qed.

Definition live_result (x : arena * out) : Prop :=
  match o_res (snd x) with
  | RBlock _ p sz => exists blk, In blk (live (fst x)) /\ bptr blk = p /\ bsize blk = sz
  | _ => True
  end.

Lemma add_block_live s0 s p sz al ub :
  live_result (let '(s3, id) := add_block s p sz al in (s3, mkOut (RBlock id p sz) (new_events s0 s3) ub)).
Proof. eexists. split; [left; reflexivity|]. split; reflexivity. Qed.

(* every branch of step returns no block (`exact I`) or ends by entering the block it returns in the
   live list *)
Lemma step_live_result c s0 o r : live_result (step c s0 o r).
Proof.
  destruct o; cbn [step]; set (s := tick s0).
  - (* OAlloc *)
    destruct (negb (is_top s h)); [exact I|].
    destruct (raw_alloc c s size align r) as [s1 [q|e]]; [apply add_block_live|exact I].
  - (* ODealloc *) destruct (find_block s b); [destruct (negb (is_top s h) || has_wrapper WDealloc ws)|]; exact I.
  - (* OGrow *)
    destruct (find_block s b) as [blk|]; [|exact I]. destruct (negb (is_top s h)); [exact I|].
    destruct (raw_grow c s (bptr blk) (bsize blk) (balign blk) nsize nalign r) as [s1 [ro|e]]; [apply add_block_live|exact I].
  - (* OShrink *)
    destruct (find_block s b) as [blk|]; [|exact I].
    destruct (negb (is_top s h) && negb (has_wrapper WShrink ws && divides nalign (bptr blk))).
    + destruct (divides nalign (bptr blk)); [apply add_block_live|exact I].
    + destruct ((if has_wrapper WShrink ws then ws_shrink else raw_shrink) c s (bptr blk) (bsize blk) (balign blk) nsize nalign r)
        as [s1 [ro|e]]; [apply add_block_live|exact I].
  - (* OFill *) destruct (find_block s b); exact I.
  - (* OCheckpoint *) exact I.
  - (* OResetTo *) exact I.
  - (* OReset *) cbn [cur chunks upd_live]. destruct (cur s); try exact I. destruct (rev (chunks s)); exact I.
  - (* OResetToStart *) cbn [cur chunks upd_live]. destruct (cur s); try exact I. destruct (chunks s); exact I.
  - (* OReserve *)
    destruct (negb (is_top s h)); [exact I|]. destruct (cur s) as [i| |]; [|destruct (IMAX <? n); [exact I|]|exact I].
    + destruct (nth_error (chunks s) i) as [ch|]; [|exact I].
      destruct (n <=? _); [exact I|]. destruct (IMAX <? _); [exact I|]. destruct (grow_arena c s _ 1 r) as [s1 [e|]]; exact I.
    + destruct (grow_arena c s n 1 r) as [s1 [e|]]; exact I.
  - (* OTryErr *)
    destruct (negb (is_top s h)); [exact I|].
    destruct (if mutable then raw_prepare c s size align r else raw_alloc c s size align r) as [s1 [q|e]]; exact I.
  - (* OStats *) destruct (is_top s h); exact I.
  - (* OAlignPush *) exact I.
  - (* OAlignPop *)
    destruct (aligns s) as [|i1 [|o1 rest]]; try exact I.
    destruct (realign && (i1 <? o1)); [destruct (cur_chunk (upd_aligns s (o1 :: rest)))|]; exact I.
  - (* OPrepare *)
    destruct (negb (is_top s h)); [exact I|]. destruct (IMAX <? es * cap + (ea - 1)); [exact I|].
    destruct (raw_prepare_range c s (es * cap) ea r) as [s1 [[st en]|e]]; exact I.
  - (* OWriteRaw *) exact I.
  - (* OCommit *) destruct rev, (up c); apply add_block_live.
  - (* OClaim *) destruct (is_top s h); exact I.
  - (* OUnclaim *) exact I.
  - (* ODrop *) cbn [depth upd_live]. destruct (Nat.eqb (depth s) 0); exact I.
Qed.

Theorem result_block_is_live c s0 o r id p sz :
  o_res (snd (step c s0 o r)) = RBlock id p sz ->
  exists blk, In blk (live (fst (step c s0 o r))) /\ bptr blk = p /\ bsize blk = sz.
Proof. intros E. pose proof (step_live_result c s0 o r) as H. unfold live_result in H. rewrite E in H. exact H. Qed.

Lemma commit_frame c s0 h es ea ptr len cap rv dyn r a :
  let '(s', out) := step c s0 (OCommit h es ea ptr len cap rv dyn) r in
  mem s' a <> mem s0 a -> exists id p sz, o_res out = RBlock id p sz /\ p <= a < p + sz.
Proof.
  cbn [step]. set (s := tick s0).
  assert (Hms : forall x, mem s x = mem s0 x) by reflexivity.
  destruct rv, (up c);
    match goal with |- context [add_block ?x ?p ?sz ?al] => destruct (add_block x p sz al) as [s3 id] eqn:Eadd end;
    unfold add_block in Eadd; injection Eadd as <- _; cbn [mem bump_id upd_live o_res]; rewrite ?set_cur_pos_mem; cbn [mem upd_mem];
    intros Hne; try (exfalso; apply Hne; reflexivity).
  all: eexists _, _, _; split; [reflexivity|]; exact (mem_copy_changed _ _ _ _ _ Hne).
Qed.

(* C05: whatever byte one of these operations changes lies inside a block granted by the base
   allocator that the arena holds afterwards *)
Theorem writes_stay_inside_granted_blocks c s0 o r a :
  cfg_ok c -> inv c s0 -> op_ok2 c s0 o -> op_resp_ok2 c s0 o r ->
  match o with OWriteRaw _ _ _ | OTryErr _ _ _ _ | OShrink _ _ _ _ _ => False | _ => True end ->
  mem (fst (step c s0 o r)) a <> mem s0 a -> in_granted (fst (step c s0 o r)) a.
Proof.
  intros Hc Hinv Hok Hr Hcls Hne.
  pose proof (step_inv c s0 o r Hc Hinv Hok Hr) as Hinv'.
  assert (Hvia : forall id p sz, o_res (snd (step c s0 o r)) = RBlock id p sz -> p <= a < p + sz -> in_granted (fst (step c s0 o r)) a).
  { intros id p sz E Ha. destruct (result_block_is_live c s0 o r id p sz E) as (blk & Hin & <- & <-).
    exact (placed_in_granted c _ _ _ a Hc (proj1 (proj1 Hinv')) (proj2 (proj2 (inv_live_block c _ blk Hinv' Hin))) Ha). }
  destruct o; try destruct Hcls;
    try (exfalso; apply Hne; match goal with |- context [step c s0 ?oo r] => exact (no_write_ops c s0 oo r a) end).
  - (* OAlloc *)
    pose proof (alloc_frame c s0 h ws size align zeroed r a) as H.
    destruct (step c s0 (OAlloc h ws size align zeroed) r) as [s' out]. cbn [fst snd] in *.
    destruct (H Hne) as (_ & id & p & E & Ha). exact (Hvia id p size E Ha).
  - (* OGrow *)
    cbn [op_ok2 op_ok] in Hok. destruct Hok as [_ Hsz].
    destruct (find_block (tick s0) b) as [blk|] eqn:Ef.
    + destruct (find_block_spec (tick s0) b blk Ef) as [Hin _].
      pose proof (proj1 (inv_live_block c s0 blk Hinv Hin)) as H0.
      pose proof (grow_contents_and_frame c s0 h ws b nsize nalign zeroed r blk Ef (Hsz blk Ef) H0) as H.
      destruct (step c s0 (OGrow h ws b nsize nalign zeroed) r) as [s' out]. cbn [fst snd] in *.
      destruct (o_res out) as [id p sz| | | | | |] eqn:Eo; [|exfalso; apply Hne; apply H..].
      destruct H as (-> & _ & _ & Hfr).
      assert (Hin_rng : p <= a < p + nsize) by (specialize (Hfr a); lia).
      exact (Hvia id p nsize eq_refl Hin_rng).
    + exfalso. apply Hne. cbn [step]. rewrite Ef. reflexivity.
  - (* OFill *)
    destruct (fill_frame c s0 b seed r a Hne) as (blk & Ef & Ha).
    destruct (find_block_spec (tick s0) b blk Ef) as [Hin _].
    pose proof (proj1 (proj1 Hinv)) as Hokc. destruct (inv_live_block c s0 blk Hinv Hin) as (_ & _ & Hpl).
    assert (Ech : chunks (fst (step c s0 (OFill b seed) r)) = chunks s0) by (cbn [step]; rewrite Ef; reflexivity).
    destruct (placed_in_granted c s0 _ _ a Hc Hokc Hpl Ha) as (ch & Hch & Hr'). exists ch. rewrite Ech. split; assumption.
  - (* OStats *) exfalso. apply Hne. cbn [step]. destruct (is_top (tick s0) h); reflexivity.
  - (* OAlignPush *) exfalso. apply Hne. cbn [step].
    destruct (malign (tick s0) <? n); [destruct (cur_chunk (tick s0))|]; cbn [fst mem upd_aligns]; rewrite ?set_cur_pos_mem; reflexivity.
  - (* OAlignPop *) exfalso. apply Hne. cbn [step].
    destruct (aligns (tick s0)) as [|i1 [|o1 rest]]; try reflexivity.
    destruct (realign && (i1 <? o1)); [destruct (cur_chunk (upd_aligns (tick s0) (o1 :: rest)))|]; cbn [fst mem upd_aligns]; rewrite ?set_cur_pos_mem; reflexivity.
  - (* OPrepare *) exfalso. apply Hne. cbn [step].
    destruct (negb (is_top (tick s0) h)); [reflexivity|]. destruct (IMAX <? es * cap + (ea - 1)); [reflexivity|].
    pose proof (fast_or_slow_frame c (tick s0) (es * cap) ea (prepare_action c (es * cap) ea) r) as (_ & Hm & _).
    rewrite <- raw_prepare_range_fast_or_slow in Hm.
    destruct (raw_prepare_range c (tick s0) (es * cap) ea r) as [s1 [[st en]|e]]; cbn [fst] in *; rewrite Hm; reflexivity.
  - (* OCommit *)
    pose proof (commit_frame c s0 h es ea ptr len cap rev dyn r a) as H.
    destruct (step c s0 (OCommit h es ea ptr len cap rev dyn) r) as [s' out]. cbn [fst snd] in *.
    destruct (H Hne) as (id & p & sz & E & Ha). exact (Hvia id p sz E Ha).
Qed.

(* the same for shrink (repaired WithoutShrink::shrink; the pinned one overran the block, C02) *)
Theorem shrink_writes_stay_inside_granted_blocks c s0 h ws b nsize nalign r a :
  cfg_ok c -> inv c s0 -> fix_without_shrink c = true ->
  op_ok2 c s0 (OShrink h ws b nsize nalign) -> op_resp_ok2 c s0 (OShrink h ws b nsize nalign) r ->
  mem (fst (step c s0 (OShrink h ws b nsize nalign) r)) a <> mem s0 a ->
  in_granted (fst (step c s0 (OShrink h ws b nsize nalign) r)) a.
Proof.
  intros Hc Hinv Hfix Hok Hr Hne.
  pose proof (step_inv c s0 _ r Hc Hinv Hok Hr) as Hinv'.
  cbn [op_ok2 op_ok] in Hok. destruct Hok as [(_ & Hn0 & _) Hsz].
  destruct (find_block (tick s0) b) as [blk|] eqn:Ef.
  - pose proof (shrink_contents_and_frame c s0 h ws b nsize nalign r blk Hfix Ef (conj Hn0 (Hsz blk Ef))) as H.
    pose proof (result_block_is_live c s0 (OShrink h ws b nsize nalign) r) as Hlive.
    destruct (step c s0 (OShrink h ws b nsize nalign) r) as [s' out]. cbn [fst snd] in *.
    destruct (o_res out) as [id p sz| | | | | |] eqn:Eo; [|exfalso; apply Hne; apply H..].
    destruct H as (Hle & _ & Hfr).
    assert (Hin_rng : p <= a < p + nsize) by (specialize (Hfr a); lia).
    destruct (Hlive id p sz eq_refl) as (blk' & Hin & <- & <-).
    apply (placed_in_granted c _ _ _ a Hc (proj1 (proj1 Hinv')) (proj2 (proj2 (inv_live_block c _ blk' Hinv' Hin)))). lia.
  - exfalso. apply Hne. cbn [step]. rewrite Ef. reflexivity.
Qed.
