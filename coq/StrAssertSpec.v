(* StrAssertSpec.v — which character-boundary assertions the string operations must make.  The string model (Str.v)
   was proved to panic exactly when std::string::String does (StrProofs.v: *_panics_iff); in the code those panics
   are the calls of `assert_char_boundary` (plus the range checks of polyfill::slice::range).  tools/strsites.py reads
   the calls out of the CURRENT sources (gen/StrAsserts.v); asserts_ok decides that every operation asserts exactly
   the indices the model's panic condition mentions, in every string type that implements it. *)
From Coq Require Import String List Bool.
Import ListNotations.
Local Open Scope string_scope.

Definition expected_asserts (fn : string) : option (list string) :=
  if fn =? "generic_insert" then Some ["idx"]
  else if fn =? "generic_insert_str" then Some ["idx"]
  else if fn =? "generic_extend_from_within" then Some ["start"; "end"]
  else if fn =? "generic_replace_range" then Some ["start"; "end"]
  (* split_off: the branch that keeps the front asserts start, the one that keeps the back asserts end, the
     branch for an interior range asserts both - BEFORE the early return for an empty range (genuine defect 4:
     the pinned commit returned first) *)
  else if fn =? "split_off" then Some ["start"; "end"; "start"; "end"; "#empty-range-return"]
  else if fn =? "truncate" then Some ["new_len"]
  else if fn =? "drain" then Some ["start"; "end"]
  else None.

Fixpoint list_eqb (a b : list string) : bool :=
  match a, b with
  | [], [] => true
  | x :: a', y :: b' => (x =? y) && list_eqb a' b'
  | _, _ => false
  end.

Definition row_ok (r : string * string * list string) : bool :=
  let '(_, fn, args) := r in
  match expected_asserts fn with Some e => list_eqb args e | None => false end.

Definition required : list (string * string) :=
  [("src/bump_string.rs", "generic_insert"); ("src/bump_string.rs", "generic_insert_str");
   ("src/bump_string.rs", "generic_extend_from_within"); ("src/bump_string.rs", "generic_replace_range");
   ("src/mut_bump_string.rs", "generic_insert"); ("src/mut_bump_string.rs", "generic_insert_str");
   ("src/mut_bump_string.rs", "generic_extend_from_within"); ("src/mut_bump_string.rs", "generic_replace_range");
   ("src/fixed_bump_string.rs", "generic_insert"); ("src/fixed_bump_string.rs", "generic_insert_str");
   ("src/fixed_bump_string.rs", "generic_extend_from_within"); ("src/fixed_bump_string.rs", "generic_replace_range");
   ("src/fixed_bump_string.rs", "split_off"); ("src/bump_box.rs", "split_off");
   ("src/bump_box.rs", "truncate"); ("src/bump_box.rs", "drain")].

Definition has_row (rows : list (string * string * list string)) (k : string * string) : bool :=
  existsb (fun r => let '(f, fn, _) := r in (f =? fst k) && (fn =? snd k)) rows.

Definition asserts_ok (rows : list (string * string * list string)) : bool :=
  forallb row_ok rows && forallb (has_row rows) required.

Lemma list_eqb_eq a : forall b, list_eqb a b = true -> a = b.
Proof.
  induction a as [|x a IH]; intros [|y b] H; try discriminate; [reflexivity|].
  cbn in H. apply andb_true_iff in H. destruct H as [H1 H2]. apply String.eqb_eq in H1. subst. f_equal. apply IH. exact H2.
Qed.

Theorem asserts_ok_spec rows :
  asserts_ok rows = true ->
  (forall f fn args, In (f, fn, args) rows -> expected_asserts fn = Some args) /\
  (forall k, In k required -> exists args, In (fst k, snd k, args) rows).
Proof.
  unfold asserts_ok. intros H. apply andb_true_iff in H. destruct H as [H1 H2].
  rewrite forallb_forall in H1, H2. split.
  - intros f fn args Hin. specialize (H1 _ Hin). unfold row_ok in H1.
    destruct (expected_asserts fn) as [e|]; [|discriminate]. apply list_eqb_eq in H1. subst. reflexivity.
  - intros k Hk. specialize (H2 _ Hk). unfold has_row in H2. apply existsb_exists in H2.
    destruct H2 as ([[f fn] args] & Hin & E). apply andb_true_iff in E. destruct E as [E1 E2].
    apply String.eqb_eq in E1. apply String.eqb_eq in E2. subst. exists args. exact Hin.
Qed.
