(* ChunkSpec.v — chunk geometry and the chunk-size policy on unbounded Z, with the theorems
   C12 needs: sizes are aligned, cover header + capacity, grow, and a fresh chunk always fits
   the request that caused it.  Independent of generated code. *)
From Coq Require Import ZArith Lia Bool.
From BS Require Import Word BumpSpec.
Open Scope Z_scope.

(* layout of ChunkHeader<A>: #[repr(C, align(16))], four pointers + the allocator value *)
Definition hdr_ok (hs ha : Z) : Prop :=
  pow2 ha /\ 16 <= ha /\ ha <= 2 ^ 32 /\ (ha | hs) /\ 32 <= hs /\ hs <= 2 ^ 40.

(* AssumedMallocOverhead = [usize; 2] *)
Definition OVH : Z := 16.
Definition PAGE : Z := 4096.

Definition size_align (up : bool) (ha : Z) : Z := if up then 16 else Z.max 16 ha.

(* align_size: what the arena uses of a granted block *)
Definition spec_align_size (up : bool) (ha size : Z) : Z := down_alignZ size (size_align up ha).

Definition spec_hint_bytes (up : bool) (hs ha bytes : Z) : Z :=
  if up then OVH + (ha - OVH) + hs + bytes + 16
  else up_alignZ (OVH + bytes) ha + hs + 16.

Definition spec_hint (up : bool) (hs ha size align : Z) : Z :=
  spec_hint_bytes up hs ha (size + Z.max (align - ha) 0).

Definition next_pow2Z (x : Z) : Z := if x <=? 1 then 1 else 2 ^ Z.log2_up x.

Definition spec_size0 (hs ha hint : Z) : Z :=
  let mn := ha + hs in
  let step := Z.max PAGE ha in
  let h := Z.max hint mn in
  if h <? step then next_pow2Z h else up_alignZ h step.

Definition spec_size_from_hint (up : bool) (hs ha hint : Z) : Z :=
  let s0 := spec_size0 hs ha hint in
  if up || (ha <=? 16) then spec_align_size up ha (s0 - OVH) else s0.

Lemma next_pow2_ge x : x <= next_pow2Z x.
Proof.
  unfold next_pow2Z. destruct (Z.leb_spec x 1); [lia|].
  pose proof (Z.log2_up_spec x ltac:(lia)). lia.
Qed.

Lemma next_pow2_pow2 x : pow2 (next_pow2Z x).
Proof.
  unfold next_pow2Z. destruct (Z.leb_spec x 1); [apply pow2_1|].
  exists (Z.log2_up x). split; [apply Z.log2_up_nonneg|reflexivity].
Qed.

Lemma next_pow2_lt x : 1 < x -> next_pow2Z x < 2 * x.
Proof.
  intros Hx. unfold next_pow2Z. destruct (Z.leb_spec x 1); [lia|].
  pose proof (Z.log2_up_spec x ltac:(lia)) as [Hlo _].
  assert (0 < Z.log2_up x) by (apply Z.log2_up_pos; lia).
  replace (Z.log2_up x) with (Z.succ (Z.pred (Z.log2_up x))) by lia.
  rewrite Z.pow_succ_r by lia. lia.
Qed.

Lemma size_align_pow2 up ha : pow2 ha -> pow2 (size_align up ha).
Proof. intros H. unfold size_align. destruct up; [apply pow2_16|apply pow2_max; [apply pow2_16|assumption]]. Qed.

Lemma size_align_16 up ha : pow2 ha -> (16 | size_align up ha).
Proof.
  intros H. unfold size_align. destruct up; [apply Z.divide_refl|].
  apply pow2_divide; [apply pow2_16|apply pow2_max; [apply pow2_16|assumption]|lia].
Qed.

Section Policy.
  Variables (up : bool) (hs ha : Z).
  Hypothesis Hh : hdr_ok hs ha.

  Let Hha2 : pow2 ha. Proof. destruct Hh; tauto. Qed.
  Let Hha16 : 16 <= ha. Proof. destruct Hh; tauto. Qed.
  Let Hhap : 0 < ha. Proof. lia. Qed.

  Lemma step_facts : let step := Z.max PAGE ha in pow2 step /\ (16 | step) /\ (ha | step) /\ PAGE <= step.
  Proof.
    cbv zeta. pose proof pow2_4096 as Hp.
    pose proof (pow2_max _ _ Hp Hha2) as Hs.
    repeat split; [assumption| | |lia].
    - apply pow2_divide; [apply pow2_16|assumption|unfold PAGE; lia].
    - apply pow2_divide; [assumption|assumption|lia].
  Qed.

  Lemma size0_facts hint :
    let s0 := spec_size0 hs ha hint in
    Z.max hint (ha + hs) <= s0 /\ (16 | s0) /\ (ha | s0).
  Proof.
    cbv zeta. unfold spec_size0. destruct Hh as (_ & _ & _ & Hdiv & Hhs32 & _).
    destruct step_facts as (Hs2 & Hs16 & Hsha & Hpg). pose proof (pow2_pos _ Hs2) as Hsp.
    set (h := Z.max hint (ha + hs)). assert (48 <= h) by (unfold h; lia).
    destruct (Z.ltb_spec h (Z.max PAGE ha)).
    - pose proof (next_pow2_ge h). pose proof (next_pow2_pow2 h) as Hp2.
      split; [assumption|]. split.
      + apply pow2_divide; [apply pow2_16|assumption|lia].
      + apply pow2_divide; [assumption|assumption|unfold h in *; lia].
    - split; [apply up_align_ge; assumption|]. split.
      + apply up_align_div_finer; assumption.
      + apply up_align_div_finer; assumption.
  Qed.

  Theorem size_from_hint_facts hint :
    let n := spec_size_from_hint up hs ha hint in
    (16 | n) /\ (up = false -> (ha | n)) /\
    Z.max hint (ha + hs) - 16 <= n /\ hs <= n /\
    (up = false -> 16 < ha -> Z.max hint (ha + hs) <= n).
  Proof.
    cbv zeta. unfold spec_size_from_hint. pose proof (size0_facts hint) as (Hge & H16 & Hha).
    destruct Hh as (_ & _ & _ & Hdiv & Hhs32 & _).
    set (s0 := spec_size0 hs ha hint) in *.
    (* where the overhead is subtracted the alignment is 16, and s0 - 16 is a multiple of it *)
    assert (H16' : (16 | s0 - 16)) by (apply Z.divide_sub_r; [assumption|apply Z.divide_refl]).
    assert (E : forall u, size_align u ha = 16 -> spec_align_size u ha (s0 - OVH) = s0 - 16).
    { intros u Eu. unfold spec_align_size, OVH. rewrite Eu. apply down_align_id; [lia|assumption]. }
    destruct up eqn:Eup; cbn [orb].
    - rewrite E by reflexivity. repeat split; try assumption; try lia; discriminate.
    - destruct (Z.leb_spec ha 16).
      + assert (ha = 16) by lia. subst ha. rewrite E by (unfold size_align; lia).
        repeat split; try assumption; try lia; intros _; assumption.
      + repeat split; try assumption; try lia. intros _; assumption.
  Qed.

  Corollary next_ge_double_less_16 prev hint :
    2 * prev <= hint -> 2 * prev - 16 <= spec_size_from_hint up hs ha hint.
  Proof. intros H. pose proof (size_from_hint_facts hint) as (_ & _ & Hge & _). lia. Qed.

  (* align_size keeps a size between what was requested and what was granted *)
  Theorem align_size_between n g :
    (16 | n) -> (up = false -> (ha | n)) -> n <= g ->
    let u := spec_align_size up ha g in
    n <= u /\ u <= g /\ (16 | u) /\ (up = false -> (ha | u)).
  Proof.
    intros H16 Hhan Hle. cbv zeta. unfold spec_align_size.
    pose proof (size_align_pow2 up ha Hha2) as Hp. pose proof (pow2_pos _ Hp) as Hpp.
    split.
    - apply down_align_max; [assumption| |assumption].
      unfold size_align. destruct up; [assumption|].
      destruct (Z.max_spec 16 ha) as [[_ ->]|[_ ->]]; [apply Hhan; reflexivity|assumption].
    - split; [apply down_align_le; assumption|]. split.
      + apply down_align_div_finer; [assumption|apply size_align_16; assumption].
      + intros ->. apply down_align_div_finer; [assumption|]. unfold size_align.
        apply pow2_divide; [assumption|apply pow2_max; [apply pow2_16|assumption]|lia].
  Qed.

  (* ---------------- a fresh chunk fits the request that caused it ---------------- *)
  Variables (size align m : Z).
  Hypothesis Hl : valid_layout size align.
  Hypothesis Hm : valid_min_align m.

  Theorem fresh_chunk_fits hint g b :
    spec_hint up hs ha size align <= hint ->
    spec_size_from_hint up hs ha hint <= g ->
    (ha | b) ->
    let u := spec_align_size up ha g in
    (up = true -> spec_up (b + hs) (b + u) m size align <> None) /\
    (up = false -> spec_down b (b + u - hs) m size align <> None).
  Proof.
    intros Hhint Hg Hb. cbv zeta.
    destruct Hl as (Ha2 & Hs0 & _). destruct Hm as (Hm2 & Hm16).
    pose proof (pow2_pos _ Ha2) as Hap. pose proof (pow2_pos _ Hm2) as Hmp.
    pose proof (size_from_hint_facts hint) as (Hn16 & Hnha & Hnge & Hnhs & Hnbig).
    set (n := spec_size_from_hint up hs ha hint) in *.
    pose proof (align_size_between n g Hn16 Hnha Hg) as (Hun & Hug & Hu16 & Huha).
    set (u := spec_align_size up ha g) in *.
    destruct Hh as (_ & _ & _ & Hdiv & Hhs32 & _).
    unfold spec_hint, spec_hint_bytes, OVH in Hhint.
    split; intros Hup; rewrite Hup in *.
    - (* upwards: content range [b + hs, b + u) *)
      unfold spec_up. set (q := up_alignZ (b + hs) align).
      assert (Hq : q <= b + hs + Z.max (align - ha) 0).
      { unfold q. destruct (Z_le_gt_dec align ha).
        - rewrite up_align_id; [lia|assumption|].
          apply Z.divide_add_r; eapply Z.divide_trans; try eassumption;
            apply pow2_divide; assumption.
        - (* align > ha: b + hs is ha-aligned, so padding <= align - ha *)
          assert (Hd : (ha | b + hs)) by (apply Z.divide_add_r; assumption).
          assert (Hda : (ha | align)) by (apply pow2_divide; [assumption|assumption|lia]).
          pose proof (up_align_div (b + hs) align Hap) as Hqa.
          pose proof (up_align_lt (b + hs) align Hap) as Hql.
          assert (Hqd : (ha | up_alignZ (b + hs) align)) by (eapply Z.divide_trans; eassumption).
          pose proof (divide_lt_step ha _ (b + hs + align) Hhap Hqd (Z.divide_add_r _ _ _ Hd Hda) Hql).
          lia. }
      destruct (Z.leb_spec (b + hs) (b + u)); [|lia]. cbn [andb].
      destruct (Z.leb_spec (q + size) (b + u)); [discriminate|lia].
    - (* downwards: content range [b, b + u - hs) *)
      unfold spec_down. set (A := Z.max align m).
      assert (HA2 : pow2 A) by (apply pow2_max; assumption). pose proof (pow2_pos _ HA2) as HAp.
      set (x := b + u - hs - size).
      assert (Hup1 : up_alignZ (16 + (size + Z.max (align - ha) 0)) ha >= 16 + size + Z.max (align - ha) 0).
      { pose proof (up_align_ge (16 + (size + Z.max (align - ha) 0)) ha Hhap). lia. }
      destruct (Z.leb_spec b (b + u - hs)); [|lia]. cbn [andb].
      replace (b + u - hs - size) with x by reflexivity.
      destruct (Z.leb_spec b (down_alignZ x A)) as [|Hbad]; [discriminate|exfalso].
      destruct (Z_le_gt_dec A ha) as [HAle|HAgt].
      + (* A | b: aligning down cannot pass b *)
        assert (b <= down_alignZ x A); [|lia].
        apply down_align_max; [assumption| |unfold x; lia].
        eapply Z.divide_trans; [|exact Hb]. apply pow2_divide; assumption.
      + (* A > ha >= 16 >= m, so A = align > ha *)
        assert (A = align) by (unfold A in *; lia).
        pose proof (down_align_gt x A HAp).
        destruct (Z_le_gt_dec ha 16).
        * (* ha = 16: n >= hint - 16 *)
          assert (x >= b + align) by (unfold x; lia). lia.
        * (* ha > 16: no overhead subtraction, and n = 0, hint = 16 (mod ha) gives ha - 16 slack *)
          specialize (Hnbig eq_refl ltac:(lia)). specialize (Hnha eq_refl).
          set (r := up_alignZ (16 + (size + Z.max (align - ha) 0)) ha) in *.
          assert (Hr : (ha | r)) by (apply up_align_div; assumption).
          assert (Hn' : r + hs + ha <= n).
          { apply divide_lt_step; [assumption|apply Z.divide_add_r; assumption|assumption|lia]. }
          assert (x >= b + align + 16) by (unfold x; lia). lia.
  Qed.
End Policy.

(* non-vacuity / sanity: the zero-sized-allocator header, a 100-byte align-64 request *)
Example policy_example :
  spec_hint true 32 16 100 64 = 212 /\ spec_size_from_hint true 32 16 212 = 240 /\
  spec_hint false 64 32 100 64 = 240 /\ spec_size_from_hint false 64 32 240 = 256.
Proof. repeat split; reflexivity. Qed.
