(* ArenaAny.v — the type-erased statistics (src/stats/any.rs).  An `AnyChunk` sees a chunk through its
   header alone: the header's address, its `end` field (the far end of the chunk: the chunk end when
   bumping upwards, the chunk START when bumping downwards), its `pos` field and the header size it
   was given when it was made from a typed `Chunk<A, S>`.  The bump direction is inferred
   (`end > header`), every range is computed from those four numbers.  With the header size of the
   allocator the chunk came from, the type-erased view reports exactly the typed numbers and ranges
   (C10's clause); with the 32-byte header of a zero-sized allocator — what the pinned commit assumed
   for every allocator (genuine defect 2, repaired in f0dcac1) — it does not (computed witness). *)
From Coq Require Import ZArith Lia.
From BS Require Import Word ChunkSpec Arena ArenaInv.
Open Scope Z_scope.

Record hdr := mkHdr { h_addr : Z; h_end : Z; h_pos : Z }.

(* what NonDummyChunk::new writes into the header *)
Definition header_of (c : cfg) (ch : chunk) : hdr :=
  if up c then mkHdr (cbase ch) (cbase ch + csize ch) (cpos ch)
  else mkHdr (cbase ch + csize ch - hs c) (cbase ch) (cpos ch).

Definition any_up (x : hdr) : bool := h_addr x <? h_end x.
Definition any_after_header (hsz : Z) (x : hdr) : Z := h_addr x + hsz.
Definition any_chunk_start (x : hdr) : Z := if any_up x then h_addr x else h_end x.
Definition any_chunk_end (hsz : Z) (x : hdr) : Z := if any_up x then h_end x else any_after_header hsz x.
Definition any_content_start (hsz : Z) (x : hdr) : Z := if any_up x then any_after_header hsz x else any_chunk_start x.
Definition any_content_end (hsz : Z) (x : hdr) : Z := if any_up x then any_chunk_end hsz x else h_addr x.
Definition any_size (hsz : Z) (x : hdr) : Z := any_chunk_end hsz x - any_chunk_start x.
Definition any_capacity (hsz : Z) (x : hdr) : Z := any_content_end hsz x - any_content_start hsz x.
Definition any_allocated (hsz : Z) (x : hdr) : Z :=
  if any_up x then h_pos x - any_content_start hsz x else any_content_end hsz x - h_pos x.
Definition any_remaining (hsz : Z) (x : hdr) : Z :=
  if any_up x then any_content_end hsz x - h_pos x else h_pos x - any_content_start hsz x.

Section Any.
  Variable c : cfg.
  Hypothesis Hc : cfg_ok c.
  Variable ch : chunk.
  Hypothesis Hg : chunk_geom c ch.

  Let Hhs : 32 <= hs c. Proof. unfold cfg_ok, hdr_ok in Hc; tauto. Qed.
  Let Hsz : hs c <= csize ch. Proof. unfold chunk_geom in Hg; tauto. Qed.

  Theorem any_direction_is_the_typed_one : any_up (header_of c ch) = up c.
  Proof.
    unfold any_up, header_of. destruct (up c); cbn [h_addr h_end].
    - apply Z.ltb_lt. lia.
    - apply Z.ltb_ge. lia.
  Qed.

  Theorem any_view_is_the_typed_view :
    let x := header_of c ch in
    any_chunk_start x = cbase ch /\ any_chunk_end (hs c) x = cbase ch + csize ch /\
    any_content_start (hs c) x = content_start c ch /\ any_content_end (hs c) x = content_end c ch /\
    any_size (hs c) x = csize ch /\ any_capacity (hs c) x = capacity c ch /\
    any_allocated (hs c) x = allocated_in c ch /\ any_remaining (hs c) x = remaining_in c ch /\
    h_pos x = cpos ch.
  Proof.
    cbv zeta.
    unfold any_size, any_capacity, any_allocated, any_remaining, any_content_start, any_content_end,
      any_chunk_start, any_chunk_end, any_after_header.
    rewrite any_direction_is_the_typed_one.
    unfold header_of, capacity, allocated_in, remaining_in, content_start, content_end.
    destruct (up c); cbn [h_addr h_end h_pos]; repeat split; lia.
  Qed.
End Any.

(* the pinned commit computed `after_header` with the header size of ChunkHeader<()> = 32 whatever the
   allocator: for an 8-byte allocator value (header 48 bytes) the numbers differ *)
Example any_view_pinned_refuted :
  let c := mkCfg true false true true 512 48 16 true in
  let ch := mkChunk 65536 512 512 512 (65536 + 48 + 4) in
  any_capacity (hs c) (header_of c ch) = capacity c ch /\
  any_capacity 32 (header_of c ch) <> capacity c ch /\
  any_allocated 32 (header_of c ch) = 20 /\ allocated_in c ch = 4.
Proof. vm_compute. repeat split; try reflexivity. discriminate. Qed.

(* the header NonDummyChunk::new writes in the CURRENT source (gen/AllocSites.v) is header_of *)
From BS.gen Require AllocSites.

Theorem new_chunk_header_refines c ch :
  cfg_ok c -> chunk_geom c ch ->
  if up c then
    AllocSites.new_chunk_up_header (cbase ch) = Ok (h_addr (header_of c ch)) /\
    AllocSites.new_chunk_up_pos (cbase ch) (hs c) = Ok (fresh_pos c ch) /\
    AllocSites.new_chunk_up_end (cbase ch) (csize ch) = Ok (h_end (header_of c ch))
  else
    AllocSites.new_chunk_down_header (cbase ch) (csize ch) (hs c) = Ok (h_addr (header_of c ch)) /\
    AllocSites.new_chunk_down_pos (h_addr (header_of c ch)) = Ok (fresh_pos c ch) /\
    AllocSites.new_chunk_down_end (cbase ch) = Ok (h_end (header_of c ch)).
Proof.
  intros Hc Hg. unfold chunk_geom in Hg.
  destruct Hg as (Hb & Hdb & H16 & Hdn & Hhs & Hreq & Hsz & HW & HI).
  assert (Hh : 32 <= hs c) by (unfold cfg_ok, hdr_ok in Hc; tauto).
  unfold header_of, fresh_pos, content_start, content_end.
  (* no site calls a helper *)
  destruct (up c); cbn [h_addr h_end]; repeat split; sx_site sx_nocalls;
    cbn [Word.run]; first [reflexivity | f_equal; lia].
Qed.
