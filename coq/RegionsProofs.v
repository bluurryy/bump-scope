(* C04: soundness of the region discipline of Regions.v. *)
From Coq Require Import List Arith Bool Lia.
From BS Require Import Regions.
Import ListNotations.

Lemma all_producers_complete p : In p all_producers.
Proof. destruct p; cbn; tauto. Qed.
Lemma all_rewinders_complete w : In w all_rewinders.
Proof. destruct w; cbn; tauto. Qed.

Lemma tables_ok_facts T : Tables_ok T = true ->
  (forall p, lclass_eqb (cls T p) LTied = true) /\ (forall w, rcv T w = RMut) /\
  scoped_closure_higher_ranked T = true /\ scope_guard_borrows_mut T = true.
Proof.
  unfold Tables_ok. intros H. apply andb_prop in H. destruct H as [H H4]. apply andb_prop in H. destruct H as [H H3].
  apply andb_prop in H. destruct H as [H1 H2]. rewrite forallb_forall in H1, H2.
  split; [intros p; apply H1; apply all_producers_complete|]. split; [|split; assumption].
  intros w. specialize (H2 w (all_rewinders_complete w)). destruct (rcv T w); [discriminate|reflexivity].
Qed.

(* the static environment that corresponds to a dynamic one when every path is tied *)
Definition abs_env (e : list (nat * (nat * nat))) : list (nat * (nat * bool)) :=
  map (fun b => (fst b, (fst (snd b), true))) e.

Lemma sfind_abs x e : sfind x (abs_env e) = option_map (fun v => (fst v, true)) (find x e).
Proof.
  induction e as [|[y [l ep]] t IH]; [reflexivity|]. cbn. destruct (x =? y); [reflexivity|exact IH].
Qed.

Lemma loans_ok_spec l rest : forall e seen y ly,
  loans_ok seen l e rest = true -> sfind y e = Some (ly, true) -> ~ In y seen -> l <= ly -> uses y rest = false.
Proof.
  induction e as [|[x [lx tied]] t IH]; intros seen y ly H Hf Hn Hl; [discriminate|].
  cbn [loans_ok] in H. apply andb_prop in H. destruct H as [H1 H2]. cbn [sfind] in Hf.
  destruct (Nat.eqb_spec y x) as [->|Hne].
  - injection Hf as -> ->.
    destruct (existsb (Nat.eqb x) seen) eqn:Ex.
    { exfalso. apply existsb_exists in Ex. destruct Ex as (z & Hz & E). apply Nat.eqb_eq in E. subst z. exact (Hn Hz). }
    cbn [andb] in H1. replace (l <=? ly) with true in H1 by (symmetry; apply Nat.leb_le; exact Hl).
    cbn [andb] in H1. destruct (uses x rest); [discriminate|reflexivity].
  - apply (IH (x :: seen) y ly H2 Hf); [|exact Hl]. intros [E|Hi]; [congruence|exact (Hn Hi)].
Qed.

Definition Inv (d : dstate) (rest : list cmd) : Prop :=
  forall x, stale d x = true -> uses x rest = false.

(* a rewind at level l (scope exit, reset) makes stale exactly the values tied to l, at whatever
   depth execution goes on; loans_ok has checked that none of them is used again *)
Lemma Inv_bump d k l rest :
  Inv d rest -> loans_ok [] l (abs_env (env d)) rest = true ->
  Inv (mkD k (bump_epoch (epochs d) l) (env d)) rest.
Proof.
  intros HI Hl x. unfold stale. cbn [env epochs]. destruct (find x (env d)) as [[lx e]|] eqn:Hf; [|discriminate].
  unfold bump_epoch. destruct (Nat.eqb_spec lx l) as [->|Hne].
  - intros _. apply (loans_ok_spec l rest (abs_env (env d)) [] x l Hl); [rewrite sfind_abs, Hf; reflexivity|tauto|lia].
  - intros H. apply HI. unfold stale. rewrite Hf. exact H.
Qed.

Theorem check_sound T : Tables_ok T = true ->
  forall p d, Inv d p -> check T (mkS (depth d) (abs_env (env d))) p = true -> dexec d p = false.
Proof.
  intros HT. destruct (tables_ok_facts T HT) as (Hcls & Hrcv & Hhr & Hsg).
  induction p as [|c r IH]; intros d HI Hc; [reflexivity|].
  destruct c as [x pr|x| | |w]; cbn [check dexec dstep] in *.
  - (* Alloc *)
    rewrite Hcls in Hc. cbn [orb].
    apply (IH (mkD (depth d) (epochs d) ((x, (depth d, epochs d (depth d))) :: env d))); [|exact Hc].
    intros y Hy. unfold stale in Hy. cbn [env epochs find] in Hy.
    destruct (Nat.eq_dec y x) as [E|Hne].
    + subst y. rewrite Nat.eqb_refl in Hy. cbn in Hy. rewrite Nat.eqb_refl in Hy. discriminate.
    + apply Nat.eqb_neq in Hne. rewrite Hne in Hy.
      specialize (HI y). unfold stale in HI. cbn [uses] in HI. rewrite Hne in HI. apply HI. exact Hy.
  - (* Use *)
    assert (Hs : stale d x = false).
    { destruct (stale d x) eqn:E; [|reflexivity]. specialize (HI x E). cbn [uses] in HI. rewrite Nat.eqb_refl in HI. discriminate. }
    rewrite Hs. cbn [orb]. apply IH; [|exact Hc].
    intros y Hy. specialize (HI y Hy). cbn [uses] in HI. apply orb_false_iff in HI. tauto.
  - (* Enter *)
    cbn [orb]. apply (IH (mkD (S (depth d)) (epochs d) (env d))); [|exact Hc].
    intros y Hy. exact (HI y Hy).
  - (* Exit *)
    destruct (depth d) as [|k] eqn:Ed.
    + cbn [orb]. replace d with (mkD (depth d) (epochs d) (env d)) in IH at 1 by (destruct d; reflexivity).
      apply IH; [intros y Hy; exact (HI y Hy)|]. rewrite Ed in *. exact Hc.
    + cbn [orb]. rewrite Hhr, Hsg in Hc. cbn [andb] in Hc. apply andb_prop in Hc. destruct Hc as [Hl Hc].
      apply (IH (mkD k (bump_epoch (epochs d) (S k)) (env d))); [|exact Hc]. apply Inv_bump; [exact HI|exact Hl].
  - (* Rewind *)
    cbn [orb]. rewrite Hrcv in Hc. apply andb_prop in Hc. destruct Hc as [Hl Hc].
    apply (IH (mkD (depth d) (bump_epoch (epochs d) (depth d)) (env d))); [|exact Hc]. apply Inv_bump; [exact HI|exact Hl].
Qed.

(* C04: every program the static check accepts, at any nesting depth, never uses a value after the
   memory it points to may have been handed out again *)
Theorem region_discipline_sound T p :
  Tables_ok T = true -> check T sinit p = true -> dexec dinit p = false.
Proof.
  intros HT Hc. apply (check_sound T HT p dinit); [|exact Hc]. intros x Hx. discriminate.
Qed.

(* and the converse direction that makes the tables matter: with ONE path whose lifetime is free
   (or one rewinding operation through a shared reference), an accepted program does use a value
   after reuse — the escape program of that table row *)
Definition with_cls (T : tables) (p0 : producer) : tables :=
  mkTables (fun p => if lclass_eqb LTied LTied && match p, p0 with
                        | PBump, PBump | PScope, PScope | PTraitRefBump, PTraitRefBump | PTraitMutBump, PTraitMutBump
                        | PTraitScope, PTraitScope | PTraitWrapped, PTraitWrapped | PGuardScope, PGuardScope
                        | PPoolGuard, PPoolGuard | PClaim, PClaim | PCollection, PCollection => true | _, _ => false end
                     then LFree else cls T p)
           (rcv T) (scoped_closure_higher_ranked T) (scope_guard_borrows_mut T).

Theorem free_lifetime_admits_escape T p0 :
  let T' := with_cls T p0 in
  let prog := [Alloc 0 p0; Rewind WReset; Use 0] in
  check T' sinit prog = true /\ dexec dinit prog = true.
Proof. destruct p0; cbn; destruct (rcv T WReset); split; reflexivity. Qed.

Theorem shared_rewinder_admits_escape T w0 p :
  rcv T w0 = RShared ->
  let prog := [Alloc 0 p; Rewind w0; Use 0] in
  check T sinit prog = true /\ dexec dinit prog = true.
Proof. intros H. cbn. rewrite H. split; reflexivity. Qed.

(* non-vacuity: a nested program that is accepted, and one that is rejected *)
Definition T_good : tables := mkTables (fun _ => LTied) (fun _ => RMut) true true.
Example accepted_example :
  Tables_ok T_good = true /\
  check T_good sinit [Alloc 0 PBump; Enter; Alloc 1 PScope; Use 1; Use 0; Enter; Alloc 2 PGuardScope; Use 2; Exit; Use 1; Exit; Use 0; Rewind WReset; Alloc 0 PBump; Use 0] = true.
Proof. split; reflexivity. Qed.
Example rejected_examples :
  check T_good sinit [Enter; Alloc 1 PScope; Exit; Use 1] = false /\
  check T_good sinit [Alloc 0 PTraitMutBump; Rewind WReset; Use 0] = false /\
  check T_good sinit [Enter; Alloc 1 PGuardScope; Rewind WSecondScope; Use 1] = false.
Proof. repeat split; reflexivity. Qed.
