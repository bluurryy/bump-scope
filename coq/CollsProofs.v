(* CollsProofs.v — C06 (every element is dropped / handed out / kept exactly once, for EVERY
   oracle: a panic at any callback invocation, any panicking Drop) and C08 (the operations
   compute the std::vec::Vec list functions) over the model of Colls.v. *)
From Coq Require Import List Arith Bool Lia Permutation.
From BS Require Import Colls.
Import ListNotations.

Definition conserved (o : outcome) (input : list nat) : Prop :=
  Permutation (final o ++ yielded o ++ dropped o) input.

Lemma conserved_nodup o input : conserved o input -> NoDup input -> NoDup (final o ++ yielded o ++ dropped o).
Proof. intros H Hn. eapply Permutation_NoDup; [symmetry; exact H|exact Hn]. Qed.

Lemma conserved_unchanged l u c : conserved (mkOutcome l [] [] u c) l.
Proof. unfold conserved. cbn [final yielded dropped]. rewrite !app_nil_r. reflexivity. Qed.

Lemma skipn_skipn {A} (l : list A) a b : skipn a (skipn b l) = skipn (b + a) l.
Proof.
  revert l. induction b as [|b IH]; intros l; [reflexivity|].
  destruct l as [|x t]; [rewrite !skipn_nil; reflexivity|]. cbn [skipn plus]. apply IH.
Qed.

Lemma NoDup_app_l {A} (l1 l2 : list A) : NoDup (l1 ++ l2) -> NoDup l1.
Proof.
  induction l1 as [|a l1 IH]; intros H; [constructor|]. inversion H as [|x xs Hn Hd]; subst.
  constructor; [intros Hin; apply Hn; apply in_or_app; left; exact Hin|apply IH; exact Hd].
Qed.

Lemma firstn_skipn_perm {A} (l : list A) n : Permutation (firstn n l ++ skipn n l) l.
Proof. rewrite firstn_skipn. reflexivity. Qed.

Lemma firstn_to_end {A} (l : list A) n m : length l <= n + m -> firstn m (skipn n l) = skipn n l.
Proof. intros H. apply firstn_all2. rewrite skipn_length. lia. Qed.

Lemma range_split {A} (l : list A) a b : a <= b ->
  l = firstn a l ++ firstn (b - a) (skipn a l) ++ skipn b l.
Proof.
  intros H. rewrite <- (firstn_skipn a l) at 1. f_equal.
  rewrite <- (firstn_skipn (b - a) (skipn a l)) at 1. f_equal. rewrite skipn_skipn. f_equal. lia.
Qed.

Lemma range_check_spec a b n : BoolSpec (b < a \/ n < b) (a <= b <= n) ((b <? a) || (n <? b)).
Proof. destruct (Nat.ltb_spec b a), (Nat.ltb_spec n b); constructor; lia. Qed.

Lemma range_guard_cases {A} a b n (refused ok : A) (P : A -> Prop) :
  (b < a \/ n < b -> P refused) -> (a <= b <= n -> P ok) ->
  P (if (b <? a) || (n <? b) then refused else ok).
Proof. intros Hr Hok. destruct (range_check_spec a b n); [apply Hr|apply Hok]; assumption. Qed.

(* permutations of ++ / :: / rev combinations, by counting occurrences *)
Ltac perm :=
  apply (Permutation_count_occ Nat.eq_dec); intros ?z;
  repeat match goal with |- context [?x :: ?l] =>
    lazymatch l with [] => fail | _ => change (x :: l) with ([x] ++ l) end end;
  repeat rewrite ?count_occ_app, ?count_occ_rev;
  cbn [count_occ];
  lia.

Theorem truncate_conserved dp l n : conserved (op_truncate dp l n) l.
Proof.
  unfold op_truncate. destruct (length l <=? n); [apply conserved_unchanged|].
  unfold conserved. cbn. rewrite firstn_skipn. reflexivity.
Qed.

Theorem truncate_spec dp l n : final (op_truncate dp l n) = firstn n l.
Proof.
  unfold op_truncate. destruct (Nat.leb_spec (length l) n); cbn [final drop_all]; [|reflexivity].
  symmetry. apply firstn_all2. exact H.
Qed.

Lemma removelast_rev_cons {A} (l : list A) x r : rev l = x :: r -> l = rev r ++ [x] /\ removelast l = rev r.
Proof.
  intros E. assert (l = rev r ++ [x]) by (rewrite <- (rev_involutive l), E; reflexivity).
  split; [exact H|]. subst l. apply removelast_last.
Qed.

Theorem pop_conserved l : conserved (op_pop l) l.
Proof.
  unfold op_pop. destruct (rev l) as [|x r] eqn:E; [apply conserved_unchanged|].
  destruct (removelast_rev_cons l x r E) as [-> _].
  unfold conserved. cbn [final yielded dropped]. rewrite app_nil_r. reflexivity.
Qed.

Lemma nth_split {A} (l : list A) i x : nth_error l i = Some x -> l = firstn i l ++ x :: skipn (S i) l.
Proof.
  revert i; induction l as [|a l IH]; intros [|i] E; cbn in *; try discriminate.
  - injection E as ->. reflexivity.
  - f_equal. apply IH. exact E.
Qed.

Theorem remove_conserved l i : conserved (op_remove l i) l.
Proof.
  unfold op_remove. destruct (nth_error l i) as [x|] eqn:E; [|apply conserved_unchanged].
  unfold conserved. cbn [final yielded dropped]. rewrite (nth_split l i x E) at 3. perm.
Qed.

Theorem remove_spec l i x : nth_error l i = Some x ->
  op_remove l i = mkOutcome (firstn i l ++ skipn (S i) l) [x] [] false 0.
Proof. intros E. unfold op_remove. rewrite E. reflexivity. Qed.

Theorem remove_panics_iff l i : unwound (op_remove l i) = true <-> length l <= i.
Proof.
  unfold op_remove. destruct (nth_error l i) eqn:E; cbn [unwound].
  - split; [discriminate|]. intros H. apply nth_error_None in H. congruence.
  - split; [intros _; apply nth_error_None; exact E|reflexivity].
Qed.

(* the list is m ++ [lastx]: either x is that last element, or it lies in m and the last element
   takes its place *)
Theorem swap_remove_conserved l i : conserved (op_swap_remove l i) l.
Proof.
  unfold op_swap_remove. destruct (nth_error l i) as [x|] eqn:E; [|apply conserved_unchanged].
  destruct (rev l) as [|lastx r] eqn:Er; [apply conserved_unchanged|].
  destruct (removelast_rev_cons l lastx r Er) as [-> ->]. clear Er. revert E. generalize (rev r) as m.
  intros m E. rewrite app_length, Nat.add_1_r.
  destruct (Nat.eqb_spec (S i) (S (length m))) as [Hi|Hi]; unfold conserved; cbn [final yielded dropped].
  - injection Hi as ->. rewrite nth_error_app2, Nat.sub_diag in E by apply Nat.le_refl.
    injection E as ->. rewrite app_nil_r. reflexivity.
  - assert (Hlt : i < length m).
    { assert (H : i < length (m ++ [lastx])) by (apply nth_error_Some; congruence).
      rewrite app_length in H. cbn [length] in H. lia. }
    rewrite nth_error_app1 in E by exact Hlt. rewrite (nth_split m i x E) at 3. perm.
Qed.

Theorem insert_conserved l i x : conserved (op_insert l i x) (l ++ [x]).
Proof.
  unfold op_insert, conserved. destruct (length l <? i); cbn [final yielded dropped].
  - reflexivity.
  - rewrite <- (firstn_skipn i l) at 3. perm.
Qed.

Theorem insert_spec l i x : i <= length l ->
  op_insert l i x = mkOutcome (firstn i l ++ x :: skipn i l) [] [] false 0.
Proof. intros H. unfold op_insert. destruct (Nat.ltb_spec (length l) i); [lia|reflexivity]. Qed.

(* retain, dedup_by and extract_if keep a prefix `kept` of what stays, the unread `rest`, and a list
   `out` of what went (dropped or handed out).  The three facts below are all their conservation
   needs: an element read next joins `kept` or `out`; and a guard that puts the unread rest back
   behind `kept` has lost nothing. *)
Lemma conserved_keep o kept x r out :
  conserved o ((kept ++ [x]) ++ r ++ out) -> conserved o (kept ++ (x :: r) ++ out).
Proof. rewrite <- app_assoc. exact (fun H => H). Qed.

Lemma conserved_out o kept x r out :
  conserved o (kept ++ r ++ out ++ [x]) -> conserved o (kept ++ (x :: r) ++ out).
Proof.
  unfold conserved. intros H. rewrite H. apply Permutation_app_head.
  rewrite app_assoc. symmetry. apply Permutation_cons_append.
Qed.

Lemma conserved_stop kept rest ys dr out u c :
  ys ++ dr = out -> conserved (mkOutcome (kept ++ rest) ys dr u c) (kept ++ rest ++ out).
Proof. intros <-. unfold conserved. cbn [final yielded dropped]. rewrite <- app_assoc. reflexivity. Qed.

Lemma retain_go_conserved f dp : forall rest k kept dr,
  conserved (retain_go f dp k kept rest dr) (kept ++ rest ++ dr).
Proof.
  induction rest as [|x r IH]; intros k kept dr; cbn [retain_go]; [apply Permutation_refl|].
  destruct (f k x) as [[|]|].
  - apply conserved_keep, IH.
  - destruct (dp x); apply conserved_out; [apply conserved_stop; reflexivity|apply IH].
  - apply conserved_stop. reflexivity.
Qed.

Theorem retain_conserved f dp l : conserved (op_retain f dp l) l.
Proof. rewrite <- (app_nil_r l) at 2. apply (retain_go_conserved f dp l 0 [] []). Qed.

(* C08: without a panic retain is filter *)
Lemma retain_go_spec (g : nat -> nat -> bool) dp : forall rest k kept dr,
  (forall x, dp x = false) ->
  retain_go (fun k x => Ret (g k x)) dp k kept rest dr =
  mkOutcome (kept ++ filter_k g k rest) [] (dr ++ filter_k (fun k x => negb (g k x)) k rest) false (k + length rest).
Proof.
  induction rest as [|x r IH]; intros k kept dr Hdp; cbn [retain_go filter_k length].
  - rewrite !app_nil_r, Nat.add_0_r. reflexivity.
  - destruct (g k x); cbn [negb]; rewrite ?Hdp, IH by exact Hdp; rewrite <- app_assoc; cbn; f_equal; lia.
Qed.

Theorem retain_is_filter (g : nat -> nat -> bool) dp l :
  (forall x, dp x = false) ->
  final (op_retain (fun k x => Ret (g k x)) dp l) = filter_k g 0 l /\
  unwound (op_retain (fun k x => Ret (g k x)) dp l) = false.
Proof. intros H. unfold op_retain. rewrite retain_go_spec by exact H. split; reflexivity. Qed.

Lemma dedup_go_conserved f dp : forall rest k kept prev dr,
  conserved (dedup_go f dp k kept prev rest dr) (kept ++ rest ++ dr).
Proof.
  induction rest as [|x r IH]; intros k kept prev dr; cbn [dedup_go]; [apply Permutation_refl|].
  destruct (f k x prev) as [[|]|].
  - destruct (dp x); apply conserved_out; [apply conserved_stop; reflexivity|apply IH].
  - apply conserved_keep, IH.
  - apply conserved_stop. reflexivity.
Qed.

Theorem dedup_conserved f dp l : conserved (op_dedup_by f dp l) l.
Proof.
  unfold op_dedup_by. destruct l as [|x r]; [apply conserved_unchanged|].
  rewrite <- (app_nil_r r) at 2. apply (dedup_go_conserved f dp r 0 [x] x []).
Qed.

Lemma dedup_go_spec (g : nat -> nat -> nat -> bool) dp : forall rest k kept prev dr,
  (forall x, dp x = false) ->
  final (dedup_go (fun k x p => Ret (g k x p)) dp k kept prev rest dr) = kept ++ dedup_ref g k prev rest /\
  unwound (dedup_go (fun k x p => Ret (g k x p)) dp k kept prev rest dr) = false.
Proof.
  induction rest as [|x r IH]; intros k kept prev dr Hdp; cbn [dedup_go dedup_ref].
  - rewrite app_nil_r. split; reflexivity.
  - destruct (g k x prev).
    + rewrite Hdp. apply IH. exact Hdp.
    + destruct (IH (S k) (kept ++ [x]) x dr Hdp) as [A B]. rewrite A, B, <- app_assoc. split; reflexivity.
Qed.

Theorem dedup_is_std (g : nat -> nat -> nat -> bool) dp x r :
  (forall y, dp y = false) ->
  final (op_dedup_by (fun k a p => Ret (g k a p)) dp (x :: r)) = x :: dedup_ref g 0 x r.
Proof. intros H. unfold op_dedup_by. destruct (dedup_go_spec g dp r 0 [x] x [] H) as [A _]. exact A. Qed.

Lemma extract_go_conserved f : forall rest k want kept ys,
  conserved (extract_go f k want kept rest ys) (kept ++ rest ++ ys).
Proof.
  induction rest as [|x r IH]; intros k want kept ys; destruct want as [|w]; cbn [extract_go].
  - (* nothing left, nothing wanted *) apply conserved_stop, app_nil_r.
  - (* nothing left *) unfold conserved. cbn [final yielded dropped app]. rewrite app_nil_r. reflexivity.
  - (* nothing wanted *) apply conserved_stop, app_nil_r.
  - destruct (f k x) as [[|]|].
    + apply conserved_out, IH.
    + apply conserved_keep, IH.
    + apply conserved_stop, app_nil_r.
Qed.

Theorem extract_if_conserved f l want : conserved (op_extract_if f l want) l.
Proof. rewrite <- (app_nil_r l) at 2. apply (extract_go_conserved f l 0 want [] []). Qed.

(* C08: run to the end without a panic, this is std's extract_if *)
Lemma extract_go_spec (g : nat -> nat -> bool) : forall rest k want kept ys,
  length rest < want ->
  extract_go (fun k x => Ret (g k x)) k want kept rest ys =
  mkOutcome (kept ++ filter_k (fun k x => negb (g k x)) k rest) (ys ++ filter_k g k rest) [] false (k + length rest).
Proof.
  induction rest as [|x r IH]; intros k want kept ys Hw; destruct want as [|w]; cbn [extract_go filter_k length] in *; try lia.
  - rewrite !app_nil_r, Nat.add_0_r. reflexivity.
  - destruct (g k x); cbn [negb]; rewrite IH by lia; rewrite <- app_assoc; cbn; f_equal; lia.
Qed.

Lemma lastn_spec {A} (l : list A) n : n <= length l -> firstn (length l - n) l ++ lastn n l = l.
Proof. intros H. unfold lastn. apply firstn_skipn. Qed.

(* one conjunct for each way the Drain can end; a forgotten Drain leaks mid and tail *)
Lemma drain_pieces (l rng head front mid back tail : list nat) :
  l = head ++ rng ++ tail -> rng = front ++ mid ++ back ->
  Permutation ((head ++ tail) ++ (front ++ rev back) ++ mid) l /\
  Permutation ((head ++ mid ++ tail) ++ (front ++ rev back) ++ []) l /\
  Permutation ((head ++ (front ++ rev back) ++ []) ++ mid ++ tail) l.
Proof. intros -> ->. repeat split; perm. Qed.

Lemma op_drain_pieces (l : list nat) a b kf kb : a <= b ->
  let rng := firstn (b - a) (skipn a l) in
  let kf' := Nat.min kf (length rng) in
  let kb' := Nat.min kb (length rng - kf') in
  l = firstn a l ++ rng ++ skipn b l /\
  rng = firstn kf' rng ++ firstn (length rng - kf' - kb') (skipn kf' rng) ++ lastn kb' rng.
Proof.
  intros H rng kf' kb'. split; [apply range_split, H|].
  assert (Hk : kf' + kb' <= length rng) by lia. clearbody kf' kb'. unfold lastn.
  replace (length rng - kf' - kb') with (length rng - kb' - kf') by lia. apply range_split. lia.
Qed.

Theorem drain_conserved dp l a b kf kb e :
  e <> DrainForget -> conserved (op_drain dp l a b kf kb e) l.
Proof.
  intros He. unfold op_drain. apply range_guard_cases; [intros _; apply conserved_unchanged|intros [Hab _]].
  destruct (op_drain_pieces l a b kf kb Hab) as [Hl Hr].
  destruct (drain_pieces _ _ _ _ _ _ _ Hl Hr) as (Pdrop & Pkeep & _).
  destruct e; [exact Pdrop|exact Pkeep|congruence].
Qed.

(* a leaked Drain (mem::forget) never drops anything twice; the rest is leaked, which C06 allows *)
Theorem drain_forget_no_double dp l a b kf kb :
  NoDup l ->
  let o := op_drain dp l a b kf kb DrainForget in
  NoDup (final o ++ yielded o ++ dropped o) /\ incl (final o ++ yielded o ++ dropped o) l.
Proof.
  intros Hn. cbv zeta.
  assert (Hsub : forall x y : list nat, Permutation (x ++ y) l -> NoDup x /\ incl x l).
  { intros x y Hp. split; [eapply NoDup_app_l, Permutation_NoDup; [symmetry; exact Hp|exact Hn]|].
    intros z Hz. eapply Permutation_in; [exact Hp|]. apply in_or_app. left. exact Hz. }
  unfold op_drain. apply range_guard_cases; [intros _|intros [Hab _]].
  - apply (Hsub _ []). rewrite app_nil_r. apply conserved_unchanged.
  - destruct (op_drain_pieces l a b kf kb Hab) as [Hl Hr].
    destruct (drain_pieces _ _ _ _ _ _ _ Hl Hr) as (_ & _ & Pforget). exact (Hsub _ _ Pforget).
Qed.

Theorem drain_spec dp l a b : a <= b <= length l ->
  final (op_drain dp l a b (b - a) 0 DrainDrop) = firstn a l ++ skipn b l /\
  yielded (op_drain dp l a b (b - a) 0 DrainDrop) = firstn (b - a) (skipn a l).
Proof.
  intros H. unfold op_drain. apply range_guard_cases; [lia|intros _].
  set (rng := firstn (b - a) (skipn a l)).
  assert (Hrl : length rng = b - a) by (unfold rng; rewrite firstn_length, skipn_length; lia).
  rewrite Hrl, Nat.min_id, Nat.sub_diag. cbn [Nat.min drop_all final yielded]. split; [reflexivity|].
  unfold lastn. rewrite Nat.sub_0_r, skipn_all, <- Hrl, firstn_all. apply app_nil_r.
Qed.

Theorem drain_panics_iff dp l a b kf kb e :
  unwound (op_drain dp l a b kf kb e) = true -> e = DrainDrop \/ (b < a \/ length l < b).
Proof.
  unfold op_drain. apply range_guard_cases; [intros H _; right; exact H|intros _].
  destruct e; cbn; [left; reflexivity|discriminate|discriminate].
Qed.

Lemma firstn_app_exact {A} (x y : list A) n : n = length x -> firstn n (x ++ y) = x.
Proof. intros ->. rewrite firstn_app, Nat.sub_diag, firstn_all. cbn. apply app_nil_r. Qed.

Lemma skipn_app_exact {A} (x y : list A) n : n = length x -> skipn n (x ++ y) = y.
Proof. intros ->. rewrite skipn_app, Nat.sub_diag, skipn_all. reflexivity. Qed.

Lemma rotate_left_app {A} (x y : list A) n : n = length x -> rotate_left (x ++ y) n = y ++ x.
Proof. intros H. unfold rotate_left. rewrite skipn_app_exact, firstn_app_exact by exact H. reflexivity. Qed.

(* whichever way the code rotates, and in its three shortcuts (no tail, no head, empty range) *)
Lemma split_off_code_app {A} (h r t : list A) a b : a = length h -> b = a + length r ->
  split_off_code (h ++ r ++ t) a b = (h ++ t, r).
Proof.
  intros -> ->. unfold split_off_code. rewrite !app_length.
  destruct (Nat.eqb_spec (length h + length r) (length h + (length r + length t))) as [E|_].
  { assert (t = []) by (apply length_zero_iff_nil; lia). subst t.
    rewrite !app_nil_r, firstn_app_exact, skipn_app_exact by reflexivity. reflexivity. }
  destruct (Nat.eqb_spec (length h) 0) as [E|_].
  { apply length_zero_iff_nil in E. subst h. cbn [app length Nat.add].
    rewrite firstn_app_exact, skipn_app_exact by reflexivity. reflexivity. }
  destruct (Nat.eqb_spec (length h) (length h + length r)) as [E|_].
  { assert (r = []) by (apply length_zero_iff_nil; lia). subst r. reflexivity. }
  replace (length h + length r - length h) with (length r) by lia.
  destruct (length h <? _).
  - unfold rotate_right. rewrite (app_assoc h r t).
    rewrite (firstn_app_exact (h ++ r) t), (skipn_app_exact (h ++ r) t) by (symmetry; apply app_length).
    rewrite (rotate_left_app h r) by (rewrite app_length; lia).
    rewrite <- app_assoc, skipn_app_exact, firstn_app_exact by reflexivity. reflexivity.
  - rewrite (firstn_app_exact h (r ++ t)), (skipn_app_exact h (r ++ t)) by reflexivity.
    rewrite (rotate_left_app r t), (app_assoc h t r) by reflexivity.
    rewrite firstn_app_exact, skipn_app_exact by (rewrite app_length; lia). reflexivity.
Qed.

(* C16: the rotate-in-place code of split_off keeps the elements outside the range and splits off
   the range, both in order *)
Theorem split_off_code_spec {A} (l : list A) a b : a <= b <= length l ->
  split_off_code l a b = (firstn a l ++ skipn b l, firstn (b - a) (skipn a l)).
Proof.
  intros [H1 H2]. rewrite (range_split l a b H1) at 1.
  apply split_off_code_app; rewrite firstn_length; [|rewrite skipn_length]; lia.
Qed.

Theorem split_off_conserved l a b : conserved (op_split_off l a b) l.
Proof.
  unfold op_split_off. apply range_guard_cases; [intros _; apply conserved_unchanged|intros H].
  rewrite split_off_code_spec by exact H. unfold conserved. cbn [final yielded dropped].
  rewrite (range_split l a b (proj1 H)) at 4. perm.
Qed.

Theorem split_off_panics_iff l a b : unwound (op_split_off l a b) = true <-> (b < a \/ length l < b).
Proof.
  unfold op_split_off. apply range_guard_cases; intros H; [split; [intros _; exact H|reflexivity]|].
  destruct (split_off_code l a b). cbn. split; [discriminate|lia].
Qed.

(* one producer loop serves every growth operation and the zero-sized fill *)
Lemma fill_go_spec cl : forall ids k made,
  let '(m, p, _) := fill_go cl k made ids in
  exists done rest, m = made ++ done /\ ids = done ++ rest /\ (p = false -> rest = []).
Proof.
  induction ids as [|x r IH]; intros k made; cbn [fill_go].
  - exists [], []. rewrite app_nil_r. repeat split; reflexivity.
  - destruct (cl k).
    + exists [], (x :: r). rewrite app_nil_r. split; [reflexivity|]. split; [reflexivity|discriminate].
    + specialize (IH (S k) (made ++ [x])). destruct (fill_go cl (S k) (made ++ [x]) r) as [[m p] k'].
      destruct IH as (done & rest & E1 & E2 & E3). exists (x :: done), rest.
      split; [rewrite E1, <- app_assoc; reflexivity|]. split; [cbn; f_equal; exact E2|exact E3].
Qed.

Lemma extend_go_fill cl : forall ids k acc,
  extend_go cl k acc ids = let '(m, p, k') := fill_go cl k acc ids in mkOutcome m [] [] p k'.
Proof.
  induction ids as [|x r IH]; intros k acc; cbn [extend_go fill_go]; [reflexivity|].
  destruct (cl k); [reflexivity|apply IH].
Qed.

Lemma extend_go_quiet : forall ids k acc,
  extend_go (fun _ => false) k acc ids = mkOutcome (acc ++ ids) [] [] false (k + length ids).
Proof.
  induction ids as [|x r IH]; intros k acc; cbn [extend_go].
  - rewrite app_nil_r, Nat.add_0_r. reflexivity.
  - rewrite IH, <- app_assoc. cbn [length app]. f_equal. lia.
Qed.

Theorem extend_clones_conserved cl l ids :
  exists made rest, ids = made ++ rest /\ conserved (op_extend_clones cl l ids) (l ++ made) /\
    final (op_extend_clones cl l ids) = l ++ made /\
    (unwound (op_extend_clones cl l ids) = false -> rest = []).
Proof.
  unfold op_extend_clones. rewrite extend_go_fill.
  pose proof (fill_go_spec cl ids 0 l) as H. destruct (fill_go cl 0 l ids) as [[m p] k].
  destruct H as (made & rest & -> & Hr & Hp). exists made, rest.
  split; [exact Hr|]. split; [apply conserved_unchanged|]. split; [reflexivity|exact Hp].
Qed.

Theorem extend_iter_conserved nx l ids :
  exists made rest, ids = made ++ rest /\ conserved (op_extend_iter nx l ids) (l ++ made) /\
    final (op_extend_iter nx l ids) = l ++ made /\
    (unwound (op_extend_iter nx l ids) = false -> rest = []).
Proof. exact (extend_clones_conserved nx l ids). Qed.

Theorem extend_is_std l ids : final (op_extend_iter (fun _ => false) l ids) = l ++ ids /\
  unwound (op_extend_iter (fun _ => false) l ids) = false.
Proof. unfold op_extend_iter. rewrite extend_go_quiet. split; reflexivity. Qed.

Theorem resize_with_conserved f dp l new_len ids :
  exists made rest, firstn (new_len - length l) ids = made ++ rest /\
    conserved (op_resize_with f dp l new_len ids) (l ++ made) /\
    (unwound (op_resize_with f dp l new_len ids) = false -> rest = []).
Proof.
  unfold op_resize_with. destruct (Nat.leb_spec new_len (length l)) as [Hle|Hgt].
  - exists [], []. replace (new_len - length l) with 0 by lia.
    split; [reflexivity|]. split; [rewrite app_nil_r; apply truncate_conserved|auto].
  - destruct (extend_clones_conserved f l (firstn (new_len - length l) ids)) as (made & rest & Hr & Hc & _ & Hu).
    exists made, rest. repeat split; assumption.
Qed.

Theorem resize_with_is_std dp l new_len ids : new_len - length l <= length ids ->
  let o := op_resize_with (fun _ => false) dp l new_len ids in
  final o = firstn new_len l ++ firstn (new_len - length l) ids /\ length (final o) = new_len.
Proof.
  intros Hn. unfold op_resize_with. destruct (Nat.leb_spec new_len (length l)) as [Hle|Hgt]; cbv zeta.
  - rewrite truncate_spec. replace (new_len - length l) with 0 by lia. cbn [firstn]. rewrite app_nil_r.
    split; [reflexivity|]. rewrite firstn_length. lia.
  - rewrite extend_go_quiet. cbn [final]. rewrite (@firstn_all2 _ new_len l) by lia. split; [reflexivity|].
    rewrite app_length, firstn_length. lia.
Qed.

Lemma truncate_yields_nothing dp l n : yielded (op_truncate dp l n) = [].
Proof. unfold op_truncate. destruct (length l <=? n); reflexivity. Qed.

(* v comes after the clones; when a clone panics it is dropped by the unwinding instead *)
Theorem resize_conserved cl dp l new_len ids v :
  exists made rest, firstn (new_len - length l - 1) ids = made ++ rest /\
    conserved (op_resize cl dp l new_len ids v) (l ++ made ++ [v]) /\
    (unwound (op_resize cl dp l new_len ids v) = false -> length l < new_len -> rest = []).
Proof.
  unfold op_resize. destruct (Nat.leb_spec new_len (length l)) as [Hle|Hgt].
  - exists [], []. replace (new_len - length l - 1) with 0 by lia. split; [reflexivity|]. split; [|intros _ H; lia].
    pose proof (truncate_conserved dp l new_len) as Hc. unfold conserved in *. cbn [final yielded dropped app].
    rewrite truncate_yields_nothing in Hc. rewrite app_assoc. apply Permutation_app_tail. exact Hc.
  - destruct (extend_clones_conserved cl l (firstn (new_len - length l - 1) ids)) as (made & rest & Hr & _ & Hf & Hu).
    unfold op_extend_clones in Hf, Hu. exists made, rest. split; [exact Hr|].
    destruct (unwound (extend_go cl 0 l _)); unfold conserved; cbn [final yielded dropped unwound app]; rewrite Hf.
    + split; [|discriminate]. rewrite <- app_assoc. reflexivity.
    + split; [|intros _ _; apply Hu; reflexivity]. rewrite app_nil_r, <- app_assoc. reflexivity.
Qed.

Theorem resize_is_std dp l new_len ids v : new_len - length l - 1 <= length ids ->
  let o := op_resize (fun _ => false) dp l new_len ids v in
  (length l < new_len -> final o = l ++ firstn (new_len - length l - 1) ids ++ [v] /\ dropped o = []) /\
  (new_len <= length l -> final o = firstn new_len l) /\ length (final o) = new_len.
Proof.
  intros Hn. unfold op_resize. destruct (Nat.leb_spec new_len (length l)) as [Hle|Hgt]; cbv zeta.
  - cbn [final]. rewrite truncate_spec. split; [intros H; lia|]. split; [reflexivity|]. rewrite firstn_length. lia.
  - rewrite extend_go_quiet. cbn [unwound final dropped]. split; [intros _; rewrite <- app_assoc; split; reflexivity|].
    split; [intros H; lia|]. rewrite !app_length, firstn_length. cbn [length]. lia.
Qed.

Theorem map_conserved l k : conserved (op_map l k) l.
Proof.
  unfold op_map. destruct k as [k|]; [destruct (k <? length l)|]; try apply conserved_unchanged.
  apply Permutation_refl.
Qed.

Theorem map_keeps_all_or_nothing l k :
  (unwound (op_map l k) = false -> final (op_map l k) = l /\ dropped (op_map l k) = []) /\
  (unwound (op_map l k) = true -> final (op_map l k) = [] /\ dropped (op_map l k) = l).
Proof.
  unfold op_map. destruct k as [k|]; [destruct (k <? length l)|]; cbn; split; intros H; try discriminate; split; reflexivity.
Qed.

Theorem dedup_by_key_conserved key dp l : conserved (op_dedup_by_key key dp l) l.
Proof. apply dedup_conserved. Qed.

(* C08: with a key function that never panics this is std's dedup_by_key *)
Theorem dedup_by_key_is_std (kf : nat -> nat) dp x r :
  (forall y, dp y = false) ->
  final (op_dedup_by_key (fun _ e => Some (kf e)) dp (x :: r)) =
  x :: dedup_ref (fun _ e prev => kf e =? kf prev) 0 x r.
Proof.
  intros H. unfold op_dedup_by_key.
  exact (dedup_is_std (fun _ e prev => kf e =? kf prev) dp x r H).
Qed.

Theorem into_iter_conserved dp l kf kb : conserved (op_into_iter dp l kf kb) l.
Proof. unfold op_into_iter. apply drain_conserved. discriminate. Qed.

Theorem into_iter_leaves_nothing dp l kf kb : final (op_into_iter dp l kf kb) = [].
Proof.
  unfold op_into_iter, op_drain. apply range_guard_cases; [lia|intros _].
  cbn [firstn drop_all final app]. apply skipn_all.
Qed.

Theorem splice_conserved dp l a b repl take : conserved (op_splice dp l a b repl take) (l ++ repl).
Proof.
  unfold op_splice. apply range_guard_cases; [intros _; apply Permutation_refl|intros [Hab _]].
  unfold conserved. cbn [drop_all final yielded dropped]. rewrite firstn_skipn.
  rewrite (range_split l a b Hab) at 4. perm.
Qed.

Theorem splice_spec dp l a b repl take : a <= b <= length l ->
  final (op_splice dp l a b repl take) = firstn a l ++ repl ++ skipn b l.
Proof.
  intros H. unfold op_splice. apply range_guard_cases; [lia|reflexivity].
Qed.

Theorem map_in_place_conserved l k : conserved (op_map_in_place l k) l.
Proof. exact (map_conserved l k). Qed.

Theorem append_conserved l other : conserved (op_append l other) (l ++ other).
Proof. apply conserved_unchanged. Qed.

Theorem mirror_conserved o input : conserved o input -> conserved (mirror o) input.
Proof.
  unfold conserved, mirror. cbn [final yielded dropped]. intros H. rewrite <- H. perm.
Qed.

(* non-vacuity: a retain whose predicate panics on the third call *)
Example retain_example :
  op_retain (fun k x => if k =? 2 then Panic else Ret (Nat.even x)) (fun _ => false) [10; 11; 12; 13] =
  mkOutcome [10; 12; 13] [] [11] true 3.
Proof. reflexivity. Qed.

Theorem drain_zst_conserved dp l a b kf kb : conserved (op_drain_zst true dp l a b kf kb) l.
Proof. unfold op_drain_zst. apply drain_conserved. discriminate. Qed.

(* the pinned code dropped elements twice: three elements, drain(0..2) dropped unused *)
Theorem drain_zst_pinned_refuted :
  exists l a b kf kb, ~ conserved (op_drain_zst false (fun _ => false) l a b kf kb) l /\
                      dropped (op_drain_zst false (fun _ => false) l a b kf kb) = [0; 1; 0; 1].
Proof.
  exists [0; 1; 2], 0, 2, 0, 0. split; [|vm_compute; reflexivity].
  intros H. apply Permutation_length in H. vm_compute in H. discriminate.
Qed.

(* the repaired alloc_slice_fill of a zero-sized type *)
Theorem fill_zst_conserved cl ids v :
  exists done, Permutation (final (op_fill_zst true cl ids v) ++ yielded (op_fill_zst true cl ids v) ++ dropped (op_fill_zst true cl ids v)) (done ++ [v]) /\
               exists rest, ids = done ++ rest /\ (unwound (op_fill_zst true cl ids v) = false -> rest = []).
Proof.
  unfold op_fill_zst. pose proof (fill_go_spec cl ids 0 []) as H. destruct (fill_go cl 0 [] ids) as [[m p] k].
  destruct H as (done & rest & -> & E2 & E3). exists done.
  destruct p; cbn [unwound].
  - split; [apply Permutation_refl|]. exists rest. split; [exact E2|discriminate].
  - split; [apply (conserved_unchanged (done ++ [v]))|]. exists rest. split; [exact E2|exact E3].
Qed.

(* the pinned code lost the clones made before the panic: 3 clones wanted, the third panics *)
Theorem fill_zst_pinned_refuted :
  exists cl ids v, unwound (op_fill_zst false cl ids v) = true /\
    final (op_fill_zst false cl ids v) ++ yielded (op_fill_zst false cl ids v) ++ dropped (op_fill_zst false cl ids v) = [v] /\
    dropped (op_fill_zst true cl ids v) = [0; 1; v].
Proof. exists (fun k => Nat.eqb k 2), [0; 1; 2], 9. vm_compute. repeat split; reflexivity. Qed.
