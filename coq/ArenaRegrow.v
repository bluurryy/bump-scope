(* ArenaRegrow.v — growing an exclusive-borrow vector (MutBumpVec / MutBumpVecRev / MutBumpString):
   `grow_prepared_allocation` / `generic_grow_to` prepare a bigger range and copy the elements over.

   (1) As long as the vector's capacity is what `prepare` gave it — the WHOLE rest of the chunk,
       in elements — a bigger request cannot be served by the same chunk (regrow_leaves_chunk):
       the new range lies in another chunk, so old and new buffer are disjoint.  This is the
       argument behind the `copy_nonoverlapping` the code used.
   (2) `map_in_place` to a smaller element type and `into_flattened` re-express the capacity in
       another unit (reshape_capacity, flatten_capacity): the new capacity never covers more bytes
       than the old one (reshape_inside), but it can cover FEWER than the chunk offers the new
       element type — then (1) no longer applies: regrow_same_chunk_overlaps is a computed state in
       which the regrown range overlaps the old buffer (genuine defect 8, repaired by `ptr::copy`).
   (3) With the copy the repaired code makes (memmove = Arena.mem_copy, which reads the old memory
       and writes the new) the elements arrive intact whatever the overlap, and no byte outside
       the new range changes (regrow_copy_keeps_contents, regrow_copy_frame). *)
From Coq Require Import ZArith List Lia Bool.
From BS Require Import Word BumpSpec Arena.
Import ListNotations.
Open Scope Z_scope.

Lemma div_lt_mul_gt n es k : 0 < es -> n / es < k -> n < es * k.
Proof.
  intros Hes Hlt. destruct (Z.lt_ge_cases n (es * k)) as [H|H]; [exact H|].
  apply Z.div_le_lower_bound in H; lia.
Qed.

(* the range `prepare` hands out is the largest there is: from the aligned start to the aligned
   end, whichever of the two the request was measured from *)
Lemma prep_range (upw : bool) start end_ n ea st en :
  0 < ea -> (ea | n) ->
  (if upw then spec_prep_up else spec_prep_down) start end_ n ea = Some (st, en) ->
  st = up_alignZ start ea /\ en = down_alignZ end_ ea /\ n <= en - st.
Proof.
  intros Ha Hn. destruct upw; unfold spec_prep_up, spec_prep_down;
    (destruct (_ && _) eqn:E; [|discriminate]); intros [= <- <-];
    apply andb_true_iff in E as [_ E]; apply Z.leb_le in E; (split; [reflexivity|split; [reflexivity|]]).
  - assert (Hs : (ea | up_alignZ start ea + n)) by (apply Z.divide_add_r; [apply up_align_div|]; assumption).
    pose proof (down_align_max _ _ _ Ha Hs E). lia.
  - assert (Hd : (ea | down_alignZ end_ ea - n)) by (apply Z.divide_sub_r; [apply down_align_div|]; assumption).
    pose proof (up_align_min start _ _ Ha Hd ltac:(lia)). lia.
Qed.

Theorem regrow_leaves_range (upw : bool) start end_ es ea cap st en newcap :
  pow2 ea -> 0 < es -> (ea | es) ->
  (if upw then spec_prep_up else spec_prep_down) start end_ (es * cap) ea = Some (st, en) ->
  (en - st) / es < newcap ->
  (if upw then spec_prep_up else spec_prep_down) start end_ (es * newcap) ea = None.
Proof.
  intros Hp Hes Hd Hs Hlt. pose proof (pow2_pos _ Hp) as Ha.
  apply prep_range in Hs as (-> & -> & _); [|exact Ha|apply Z.divide_mul_l, Hd].
  destruct (_ start end_ (es * newcap) ea) as [[st' en']|] eqn:E; [|reflexivity].
  apply prep_range in E as (-> & -> & Hfit); [|exact Ha|apply Z.divide_mul_l, Hd].
  pose proof (div_lt_mul_gt _ _ _ Hes Hlt). lia.
Qed.

Theorem regrow_leaves_chunk c ch es ea cap st en newcap :
  pow2 ea -> 0 < es -> (ea | es) ->
  chunk_prepare c ch (es * cap) ea = Some (st, en) ->
  (en - st) / es < newcap ->
  chunk_prepare c ch (es * newcap) ea = None.
Proof.
  unfold chunk_prepare. destruct (up c); [apply (regrow_leaves_range true)|apply (regrow_leaves_range false)].
Qed.

(* FixedBumpVec::map_in_place: `(capacity * T::SIZE) / U::SIZE`; the code asserts U::SIZE <= T::SIZE
   (and U::ALIGN <= T::ALIGN) at compile time; zero-sized U: unlimited *)
Definition reshape_capacity (cap ts us : Z) : Z := if us =? 0 then W - 1 else (cap * ts) / us.
(* into_flattened of [T; N] elements: length and capacity times N; zero-sized T: (len * N, unlimited) *)
Definition flatten_capacity (cap n : Z) : Z := cap * n.

Theorem reshape_inside cap ts us :
  0 <= cap -> 0 < us -> us <= ts ->
  reshape_capacity cap ts us * us <= cap * ts /\ cap <= reshape_capacity cap ts us.
Proof.
  intros Hc Hu Hle. unfold reshape_capacity.
  assert (E : us =? 0 = false) by (apply Z.eqb_neq; lia). rewrite E.
  split.
  - pose proof (Z.mul_div_le (cap * ts) us Hu). lia.
  - apply Z.div_le_lower_bound; [exact Hu|]. nia.
Qed.

Theorem reshape_holds_elements len cap ts us :
  0 <= len <= cap -> 0 < us -> us <= ts -> len <= reshape_capacity cap ts us.
Proof. intros Hl Hu Hle. pose proof (reshape_inside cap ts us ltac:(lia) Hu Hle). lia. Qed.

Theorem flatten_same_bytes len cap n es :
  len * n * es = len * (n * es) /\ flatten_capacity cap n * es = cap * (n * es).
Proof. unfold flatten_capacity. split; ring. Qed.

(* the capacity after a reshape can be smaller than what the chunk offers the new element type:
   u32 -> u8 in a chunk with 11 bytes left (capacity 2 * 4 = 8 < 11) *)
Example reshape_can_undershoot :
  let rest := 11 in let cap_t := rest / 4 in
  reshape_capacity cap_t 4 1 = 8 /\ 8 < rest / 1.
Proof. vm_compute. split; reflexivity. Qed.

Theorem regrow_copy_keeps_contents (m : memory) (src dst bytes : Z) :
  forall i, 0 <= i < bytes -> mem_copy m src dst bytes (dst + i) = m (src + i).
Proof.
  intros i Hi. unfold mem_copy.
  assert (E : (dst <=? dst + i) && (dst + i <? dst + bytes) = true).
  { apply andb_true_iff. split; [apply Z.leb_le|apply Z.ltb_lt]; lia. }
  rewrite E. f_equal. lia.
Qed.

Theorem regrow_copy_frame (m : memory) (src dst bytes : Z) :
  forall x, ~ (dst <= x < dst + bytes) -> mem_copy m src dst bytes x = m x.
Proof.
  intros x Hx. unfold mem_copy.
  destruct ((dst <=? x) && (x <? dst + bytes)) eqn:E; [|reflexivity].
  apply andb_true_iff in E. destruct E as [E1 E2]. apply Z.leb_le in E1. apply Z.ltb_lt in E2. lia.
Qed.

(* A 512-byte upward chunk with 11 bytes left.  MutBumpVec<u32> is given the range [p+3, p+11)
   (capacity 2); map_in_place to u8 turns that into capacity 8; reserve_exact(1) on the full
   vector asks for 9 bytes — and the SAME chunk serves it, from p: the new range [p, p+11)
   overlaps the old buffer [p+3, p+11). *)
Module RegrowExample.
  Definition c0 : cfg := mkCfg true false true true 512 32 16 true.
  Definition s0 : arena := fst (init_with_size c0 1 512 (Some (65536, 512))).
  (* use all but 11 bytes of the chunk *)
  Definition s1 : arena := fst (step c0 s0 (OAlloc 0 [] (480 - 11) 1 false) None).
  Definition first : arena * out := step c0 s1 (OPrepare 0 4 4 2 false) None.
  Definition second : arena * out := step c0 (fst first) (OPrepare 0 1 1 9 false) None.
  Example regrow_same_chunk_overlaps :
    o_res (snd first) = RRange 66040 2 /\
    reshape_capacity 2 4 1 = 8 /\
    o_res (snd second) = RRange 66037 11 /\
    cur (fst second) = Cur 0 /\
    ranges_overlap 66040 8 66037 11 = true.
  Proof. vm_compute. repeat split; reflexivity. Qed.
End RegrowExample.
