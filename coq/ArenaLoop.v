(* ArenaLoop.v — C03: a fixed workload run in a reset() loop stops requesting chunks.
   (1) a chunk with enough room serves a whole workload on the fast path, without any request;
   (2) reset keeps the largest (= last) chunk, and a round that did request leaves a surviving
       chunk at least 16 bytes larger than the one it started with;
   hence the number of rounds that request anything is bounded by a number that depends only on
   the workload and the first chunk — however many rounds are run. *)
From Coq Require Import ZArith List Lia.
From BS Require Import Word BumpSpec ChunkSpec Arena ArenaInv ArenaReplay.
Import ListNotations.
Open Scope Z_scope.

(* a conservative bound on what a workload consumes: size + alignment padding + rounding *)
Definition need1 (l : Z * Z) : Z := fst l + snd l + 16.
Definition need (w : list (Z * Z)) : Z := fold_right (fun l acc => need1 l + acc) 0 w.

Lemma chunk_alloc_room c m ch size align :
  cfg_ok c -> chunk_ok c ch -> valid_min_align m -> (m | cpos ch) -> valid_layout size align ->
  size + align + 16 <= remaining_in c ch ->
  exists p ch1, chunk_alloc c m ch size align = Some (p, ch1) /\
    remaining_in c ch - (size + align + 16) <= remaining_in c ch1.
Proof.
  intros Hc [Hg Hpos] Hm Hmp (Ha2 & Hs0 & _) Hroom.
  pose proof (pow2_pos _ Ha2) as Hap. pose proof (min_align_pos _ Hm) as Hmpos. destruct Hm as [Hm2 Hm16].
  unfold chunk_alloc, remaining_in in *. destruct (up c) eqn:Eup.
  - unfold spec_up. set (q := up_alignZ (cpos ch) align).
    pose proof (up_align_ge (cpos ch) align Hap) as Q1. pose proof (up_align_lt (cpos ch) align Hap) as Q2. fold q in Q1, Q2.
    pose proof (up_align_lt (q + size) m Hmpos) as N2.
    destruct (Z.leb_spec (cpos ch) (content_end c ch)); [|lia].
    destruct (Z.leb_spec (q + size) (content_end c ch)); [|lia]. cbn [andb].
    eexists _, _. split; [reflexivity|]. cbn [set_pos cpos content_end cbase csize].
    unfold content_end in *. rewrite Eup in *. cbn [cbase csize set_pos]. lia.
  - unfold spec_down. set (A := Z.max align m).
    assert (HA : 0 < A <= align + 16) by (unfold A; lia).
    pose proof (down_align_gt (cpos ch - size) A ltac:(lia)) as P1.
    pose proof (down_align_le (cpos ch - size) A ltac:(lia)) as P2.
    destruct (Z.leb_spec (content_start c ch) (cpos ch)); [|lia].
    destruct (Z.leb_spec (content_start c ch) (down_alignZ (cpos ch - size) A)); [|lia]. cbn [andb].
    eexists _, _. split; [reflexivity|]. cbn [set_pos cpos].
    unfold content_start in *. rewrite Eup in *. cbn [cbase set_pos]. lia.
Qed.

Lemma need_nonneg w : Forall (fun l => valid_layout (fst l) (snd l)) w -> 0 <= need w.
Proof.
  induction 1 as [|[sz al] t (Ha2 & Hs0 & _) _ IH]; [cbn; lia|].
  change (need ((sz, al) :: t)) with (need1 (sz, al) + need t). unfold need1. cbn [fst snd] in *.
  pose proof (pow2_pos _ Ha2). lia.
Qed.

Lemma allocs_in_chunk c : forall w rs s j ch,
  cfg_ok c -> Forall (fun l => valid_layout (fst l) (snd l)) w ->
  cur s = Cur j -> nth_error (chunks s) j = Some ch -> chunk_ok c ch ->
  valid_min_align (malign s) -> (malign s | cpos ch) -> need w <= remaining_in c ch ->
  exists outs ch', allocs c s w rs = (upd_chunks s (set_nth (chunks s) j ch'), outs) /\ Forall is_inl outs /\
    geomt ch' = geomt ch /\ chunk_ok c ch' /\ (malign s | cpos ch').
Proof.
  induction w as [|[size align] w IH]; intros rs s j ch Hc Hw Ec En Hok Hm Hmp Hneed.
  - exists [], ch. rewrite (set_nth_same _ _ _ En). split; [destruct s; reflexivity|]. split; [constructor|]. split; [reflexivity|]. split; assumption.
  - apply Forall_cons_iff in Hw as [Hl Hw']. cbn [fst snd] in Hl.
    pose proof (need_nonneg w Hw') as Hn0.
    change (need ((size, align) :: w)) with (size + align + 16 + need w) in Hneed.
    destruct (chunk_alloc_room c (malign s) ch size align Hc Hok Hm Hmp Hl ltac:(lia)) as (p & ch1 & Ea & Hrem).
    destruct (chunk_alloc_geom c _ ch size align p ch1 Hc Hok Hm Hmp Hl Ea) as (Hok1 & _ & Hmp1 & _).
    cbn [allocs]. unfold raw_alloc at 1. rewrite Ec, En, Ea.
    set (s1 := upd_chunks s (set_nth (chunks s) j ch1)).
    assert (En1 : nth_error (chunks s1) j = Some ch1) by (apply nth_error_set_nth_eq; exact (nth_error_some_lt _ _ _ En)).
    destruct (IH (tl rs) s1 j ch1 Hc Hw' Ec En1 Hok1 Hm Hmp1 ltac:(lia)) as (outs & ch' & Hal & Hall & Eg & Hok' & Hmp').
    exists (inl p :: outs), ch'. rewrite Hal. unfold s1. cbn [chunks upd_chunks]. rewrite set_nth_set_nth.
    split; [reflexivity|]. split; [constructor; [exact I|exact Hall]|].
    split; [rewrite Eg; exact (chunk_alloc_geomt _ _ _ _ _ _ _ Ea)|]. split; [exact Hok'|exact Hmp'].
Qed.

Lemma allocs_room c : forall w rs s j ch,
  cfg_ok c -> Forall (fun l => valid_layout (fst l) (snd l)) w ->
  cur s = Cur j -> nth_error (chunks s) j = Some ch -> chunk_ok c ch ->
  valid_min_align (malign s) -> (malign s | cpos ch) -> need w <= remaining_in c ch ->
  exists s' outs ch', allocs c s w rs = (s', outs) /\ Forall is_inl outs /\ ledger s' = ledger s /\
    cur s' = Cur j /\ chunks s' = set_nth (chunks s) j ch' /\ geomt ch' = geomt ch /\ aligns s' = aligns s /\
    live s' = live s /\ chunk_ok c ch' /\ (malign s | cpos ch').
Proof.
  intros w rs s j ch Hc Hw Ec En Hok Hm Hmp Hneed.
  destruct (allocs_in_chunk c w rs s j ch Hc Hw Ec En Hok Hm Hmp Hneed) as (outs & ch' & Hal & Hall & Eg & Hok' & Hmp').
  eexists _, outs, ch'. split; [exact Hal|]. repeat (split; [first [assumption|reflexivity]|]). exact Hmp'.
Qed.

From BS Require Import ArenaSizes.

(* every answer of the base allocator during a workload is one it may give *)
Fixpoint allocs_ok (c : cfg) (s : arena) (w : list (Z * Z)) (rs : list resp) : Prop :=
  match w with
  | [] => True
  | (size, align) :: w' =>
    resp_ok c s size align (hd None rs) /\ allocs_ok c (fst (raw_alloc c s size align (hd None rs))) w' (tl rs)
  end.

Definition gsz (g : Z * Z * Z * Z) : Z := snd (fst (fst g)).
Lemma sizes_geoms s : sizes s = map gsz (geoms (chunks s)).
Proof. unfold sizes, geoms. rewrite map_map. reflexivity. Qed.

Lemma allocs_keeps c : forall w rs s j,
  cfg_ok c -> Forall (fun l => valid_layout (fst l) (snd l)) w -> allocs_ok c s w rs ->
  ginv c s -> incr (sizes s) -> cur s = Cur j ->
  let s1 := fst (allocs c s w rs) in
  ginv c s1 /\ incr (sizes s1) /\ live s1 = live s /\ mono j s s1.
Proof.
  induction w as [|[size align] w IH]; intros rs s j Hc Hw Hok Hg Hi Ec.
  - cbn. split; [exact Hg|]. split; [exact Hi|]. split; [reflexivity|].
    exact (mono_refl j s Ec (ginv_cur_lt c s j Hg Ec)).
  - apply Forall_cons_iff in Hw as [Hl Hw']. cbn [fst snd] in Hl. destruct Hok as [Hr Hok'].
    pose proof (raw_alloc_mono c s j size align (hd None rs) Ec (ginv_cur_lt c s j Hg Ec)) as M1.
    pose proof (grown_incr c size align _ _ _ Hc Hi (resp_ok_grant _ _ _ _ _ Hr) (raw_alloc_grown c s size align (hd None rs))) as Hi1.
    cbn [allocs]. destruct (raw_alloc c s size align (hd None rs)) as [s1 res] eqn:Ea. cbn [fst] in *.
    destruct (raw_alloc_post c s size align _ s1 res Hc Hg Hl Hr Ea) as (Hfr & Hg1 & _).
    pose proof M1 as (_ & _ & _ & (j1 & Ec1 & Hjj & Hl1)).
    destruct (IH (tl rs) s1 j1 Hc Hw' Hok' Hg1 Hi1 Ec1) as (Hg2 & Hi2 & Hlv & M2).
    destruct (allocs c s1 w (tl rs)) as [s2 out] eqn:Ew. cbn [fst] in *.
    split; [exact Hg2|]. split; [exact Hi2|]. split; [destruct Hfr as (E & _); congruence|].
    exact (mono_trans j j1 s s1 s2 M1 Ec1 M2).
Qed.

Definition lastsz (s : arena) : Z := match rev (chunks s) with ch :: _ => csize ch | [] => 0 end.

Definition loop_state (c : cfg) (s : arena) (ch : chunk) : Prop :=
  ginv c s /\ live s = [] /\ cur s = Cur 0%nat /\ chunks s = [ch] /\ cpos ch = fresh_pos c ch.

Lemma loop_state_incr c s ch : cfg_ok c -> loop_state c s ch -> incr (sizes s).
Proof. intros Hc (Hg & _ & _ & E & _). apply (incr_fresh c s Hc Hg). rewrite E. cbn. lia. Qed.

Lemma reset_gives_loop_state c s j r :
  cfg_ok c -> ginv c s -> live s = [] -> cur s = Cur j ->
  exists lst t, rev (chunks s) = lst :: t /\
    loop_state c (fst (step c s OReset r)) (reset_chunk c lst) /\
    aligns (fst (step c s OReset r)) = aligns s.
Proof.
  intros Hc Hg Hl Ec. pose proof (step_inv_reset c s r Hc (inv_no_live c s Hg Hl)) as (Hg' & _).
  pose proof (ginv_cur_lt c s j Hg Ec) as Hj. rewrite <- rev_length in Hj.
  revert Hg'. cbn [step]. cbn [cur upd_live tick]. rewrite Ec. cbn [chunks upd_live tick].
  destruct (rev (chunks s)) as [|lst t] eqn:Er; [inversion Hj|].
  cbn [fst]. intros Hg'. exists lst, t. split; [reflexivity|].
  match goal with |- context [log_events ?a ?b] => destruct (log_events_fields a b) as (A1 & A2 & A3 & A4 & _) end.
  split.
  - split; [exact Hg'|]. cbn [live cur chunks upd_cur upd_chunks]. split; [rewrite A4; reflexivity|].
    split; [reflexivity|]. split; reflexivity.
  - cbn [aligns upd_cur upd_chunks]. rewrite A3. reflexivity.
Qed.

Lemma reset_single_ledger c s ch r :
  cur s = Cur 0%nat -> chunks s = [ch] -> ledger (fst (step c s OReset r)) = ledger s.
Proof.
  intros Ec E. cbn [step]. cbn [cur upd_live tick chunks]. rewrite Ec, E. cbn [rev app fst].
  unfold reset_events. cbn [cur upd_live tick chunks]. rewrite Ec, E. cbn. reflexivity.
Qed.

Lemma incr_head_lt a l : incr (a :: l) -> forall b, In b l -> a < b.
Proof.
  revert a. induction l as [|x l IH]; intros a Hi b Hb; [destruct Hb|].
  cbn [incr] in Hi. destruct Hi as (_ & Hax & Hi). destruct Hb as [->|Hb]; [exact Hax|].
  pose proof (IH x Hi b Hb). lia.
Qed.

Lemma incr_first_last a l x t : incr (a :: l) -> rev (a :: l) = x :: t -> a <= x /\ (l <> [] -> a < x).
Proof.
  intros Hi Er. destruct l as [|b l'].
  - injection Er as <- _. split; [lia|congruence].
  - enough (a < x) by (split; [lia|auto]). apply (incr_head_lt a (b :: l') Hi), in_rev.
    change (rev (a :: b :: l')) with (rev (b :: l') ++ [a]) in Er.
    destruct (rev (b :: l')) as [|y ys] eqn:E; [|injection Er as <- _; left; reflexivity].
    apply (f_equal (@length Z)) in E. rewrite rev_length in E. discriminate.
Qed.

Lemma round_progress c w rs s ch r :
  cfg_ok c -> Forall (fun l => valid_layout (fst l) (snd l)) w -> loop_state c s ch -> allocs_ok c s w rs ->
  let s1 := fst (allocs c s w rs) in
  let s2 := fst (step c s1 OReset r) in
  exists ch2, loop_state c s2 ch2 /\ aligns s2 = aligns s /\ csize ch <= csize ch2 /\
    ((length (chunks s) < length (chunks s1))%nat -> csize ch + 16 <= csize ch2).
Proof.
  intros Hc Hw HL Hok s1 s2. pose proof (loop_state_incr c s ch Hc HL) as Hi.
  destruct HL as (Hg & Hlv & Ec & Ech & Hfresh).
  destruct (allocs_keeps c w rs s 0%nat Hc Hw Hok Hg Hi Ec) as (Hg1 & Hi1 & Hlv1 & M). fold s1 in Hg1, Hi1, Hlv1, M.
  destruct M as ([t Et] & Eal & _ & (j1 & Ec1 & _ & Hl1)).
  destruct (reset_gives_loop_state c s1 j1 r Hc Hg1 (eq_trans Hlv1 Hlv) Ec1) as (lst & tl_ & Er & HL2 & Eal2). fold s2 in HL2, Eal2.
  exists (reset_chunk c lst). split; [exact HL2|]. split; [congruence|].
  change (csize (reset_chunk c lst)) with (csize lst).
  assert (Hsz : sizes s1 = csize ch :: map gsz t) by (rewrite sizes_geoms, Et, Ech; reflexivity).
  assert (Hrs : rev (sizes s1) = csize lst :: map csize tl_) by (unfold sizes; rewrite <- map_rev, Er; reflexivity).
  rewrite Hsz in Hi1, Hrs. destruct (incr_first_last _ _ _ _ Hi1 Hrs) as (Hle & Hlt).
  split; [exact Hle|]. intros Hlen.
  rewrite <- (geoms_length (chunks s1)), Et, Ech, app_length in Hlen.
  assert (Hne : map gsz t <> []) by (destruct t; [cbn in Hlen; lia|discriminate]).
  (* strictly larger, and both multiples of 16 *)
  destruct (ginv_size16 c s ch Hg ltac:(rewrite Ech; left; reflexivity)) as [k1 Ek1].
  destruct (ginv_size16 c s1 lst Hg1 ltac:(apply in_rev; rewrite Er; left; reflexivity)) as [k2 Ek2].
  specialize (Hlt Hne). lia.
Qed.

Lemma round_quiet c w rs s ch r :
  cfg_ok c -> Forall (fun l => valid_layout (fst l) (snd l)) w -> loop_state c s ch ->
  need w <= capacity c ch ->
  let s1 := fst (allocs c s w rs) in
  let s2 := fst (step c s1 OReset r) in
  Forall is_inl (snd (allocs c s w rs)) /\ ledger s1 = ledger s /\ length (chunks s1) = length (chunks s) /\
  loop_state c s2 ch /\ ledger s2 = ledger s /\ aligns s2 = aligns s.
Proof.
  intros Hc Hw (Hg & Hlv & Ec & Ech & Hfresh) Hroom.
  pose proof Hg as (_ & _ & Hm & _).
  destruct (ginv_cur_chunk c s 0%nat ch Hg Ec ltac:(rewrite Ech; reflexivity)) as [Hchok Hmp].
  assert (Hrem : need w <= remaining_in c ch).
  { unfold remaining_in, capacity, fresh_pos in *. rewrite Hfresh. destruct (up c); lia. }
  destruct (allocs_in_chunk c w rs s 0%nat ch Hc Hw Ec ltac:(rewrite Ech; reflexivity) Hchok Hm Hmp Hrem)
    as (outs & ch1 & Hal & Hin & Eg & Hok1 & Hmp1).
  rewrite Ech in Hal. cbn [set_nth] in Hal. rewrite Hal. cbn [fst snd]. set (s1 := upd_chunks s [ch1]).
  split; [exact Hin|]. split; [reflexivity|]. split; [rewrite Ech; reflexivity|].
  destruct (reset_gives_loop_state c s1 0%nat r Hc (ginv_single c s1 ch1 eq_refl Ec Hok1 Hm Hmp1) Hlv Ec) as (lst & tl_ & [= <- <-] & HL2 & Eal2).
  assert (Erc : reset_chunk c ch1 = ch)
    by (rewrite (reset_chunk_geom c ch1 ch Eg); apply chunk_eq; [reflexivity|symmetry; exact Hfresh]).
  rewrite Erc in HL2. split; [exact HL2|]. split; [exact (reset_single_ledger c s1 ch1 r Ec eq_refl)|exact Eal2].
Qed.

(* the second component counts the rounds in which the arena obtained a new chunk *)
Fixpoint rounds (c : cfg) (w : list (Z * Z)) (s : arena) (rss : list (list resp)) : arena * nat :=
  match rss with
  | [] => (s, 0%nat)
  | rs :: rest =>
    let s1 := fst (allocs c s w rs) in
    let s2 := fst (step c s1 OReset None) in
    let '(sf, n) := rounds c w s2 rest in
    (sf, if (length (chunks s) <? length (chunks s1))%nat then S n else n)
  end.

Fixpoint rounds_ok (c : cfg) (w : list (Z * Z)) (s : arena) (rss : list (list resp)) : Prop :=
  match rss with
  | [] => True
  | rs :: rest =>
    allocs_ok c s w rs /\ rounds_ok c w (fst (step c (fst (allocs c s w rs)) OReset None)) rest
  end.

Theorem loop_quiet_forever c w : forall rss s ch,
  cfg_ok c -> Forall (fun l => valid_layout (fst l) (snd l)) w -> loop_state c s ch ->
  need w <= capacity c ch ->
  let '(sf, n) := rounds c w s rss in
  n = 0%nat /\ ledger sf = ledger s /\ loop_state c sf ch.
Proof.
  induction rss as [|rs rest IH]; intros s ch Hc Hw HL Hroom.
  - cbn. split; [reflexivity|]. split; [reflexivity|exact HL].
  - cbn [rounds].
    destruct (round_quiet c w rs s ch None Hc Hw HL Hroom) as (_ & _ & Hlen & HL2 & Hled2 & _).
    specialize (IH _ ch Hc Hw HL2 Hroom).
    destruct (rounds c w (fst (step c (fst (allocs c s w rs)) OReset None)) rest) as [sf n].
    destruct IH as (-> & Hl & HLf). rewrite Hlen, Nat.ltb_irrefl. split; [reflexivity|]. split; [congruence|exact HLf].
Qed.

(* the clause of C03: however many rounds are run, the number of rounds in which the arena obtains
   a chunk is bounded by a number that depends only on the workload and on the chunk the loop
   started with *)
Theorem reset_loop_converges c w : forall rss s ch,
  cfg_ok c -> Forall (fun l => valid_layout (fst l) (snd l)) w -> loop_state c s ch ->
  rounds_ok c w s rss ->
  16 * Z.of_nat (snd (rounds c w s rss)) <= Z.max 0 (need w + hs c - csize ch + 15).
Proof.
  induction rss as [|rs rest IH]; intros s ch Hc Hw HL Hok.
  - cbn. lia.
  - destruct Hok as [Hok Hrest]. cbn [rounds].
    destruct (round_progress c w rs s ch None Hc Hw HL Hok) as (ch2 & HL2 & _ & Hge & Hgrow).
    specialize (IH _ ch2 Hc Hw HL2 Hrest).
    destruct (rounds c w (fst (step c (fst (allocs c s w rs)) OReset None)) rest) as [sf n] eqn:Er. cbn [snd] in *.
    destruct (Nat.ltb_spec (length (chunks s)) (length (chunks (fst (allocs c s w rs))))) as [Hlt|Hnl]; [|clear - IH Hge; lia].
    specialize (Hgrow Hlt).
    assert (Hnoroom : capacity c ch < need w).
    { destruct (Z.lt_ge_cases (capacity c ch) (need w)) as [H|H]; [exact H|exfalso].
      destruct (round_quiet c w rs s ch None Hc Hw HL H) as (_ & _ & Hlen & _). lia. }
    assert (Hcap : capacity c ch = csize ch - hs c) by (unfold capacity, content_end, content_start; destruct (up c); lia).
    clear - IH Hgrow Hnoroom Hcap. lia.
Qed.

Lemma first_round_reaches_loop_state c w rs s j r :
  cfg_ok c -> Forall (fun l => valid_layout (fst l) (snd l)) w -> allocs_ok c s w rs ->
  ginv c s -> incr (sizes s) -> live s = [] -> cur s = Cur j ->
  exists ch, loop_state c (fst (step c (fst (allocs c s w rs)) OReset r)) ch.
Proof.
  intros Hc Hw Hok Hg Hi Hlv Ec.
  destruct (allocs_keeps c w rs s j Hc Hw Hok Hg Hi Ec) as (Hg1 & _ & Hlv1 & M).
  destruct M as (_ & _ & _ & (j1 & Ec1 & _)).
  destruct (reset_gives_loop_state c _ j1 r Hc Hg1 (eq_trans Hlv1 Hlv) Ec1) as (lst & t & _ & HL & _).
  exists (reset_chunk c lst). exact HL.
Qed.

(* non-vacuity: a 512-byte arena, a workload of 4.4 kB: the first two rounds obtain chunks (the
   second because the chunk that survived the first round is still too small for the whole
   workload), every later round obtains none *)
Module LoopExample.
  Definition c0 : cfg := mkCfg true false true true 512 32 16 true.
  Definition s0 : arena := fst (init_with_size c0 1 512 (Some (65536, 512))).
  Definition w0 : list (Z * Z) := [(300, 8); (300, 8); (700, 16); (100, 1); (3000, 32)].
  Definition rs1 : list resp := [None; Some (131072, 1024); Some (262144, 2048); None; Some (524288, 4096)].
  Definition rs2 : list resp := [None; None; None; None; Some (1048576, 8192)].
  Example two_rounds_then_quiet :
    snd (rounds c0 w0 s0 [rs1; rs2; []; []; []; []]) = 2%nat /\
    map csize (chunks (fst (rounds c0 w0 s0 [rs1; rs2; []; []; []; []]))) = [8192] /\
    need w0 = 4545.
  Proof. vm_compute. repeat split; reflexivity. Qed.

  Example cfg_holds : cfg_ok c0.
  Proof.
    unfold cfg_ok, hdr_ok, c0. cbn [hs ha min_chunk]. split; [|unfold W; lia].
    split; [exact pow2_16|]. split; [lia|]. split; [lia|]. split; [exists 2; reflexivity|]. lia.
  Qed.
  Example workload_holds : Forall (fun l => valid_layout (fst l) (snd l)) w0.
  Proof.
    unfold w0. repeat (apply Forall_cons; [unfold valid_layout, IMAX; cbn [fst snd]; split; [apply pow2b_spec; reflexivity|lia]|]).
    apply Forall_nil.
  Qed.
  Example loop_state_holds : exists ch, loop_state c0 s0 ch /\ capacity c0 ch < need w0.
  Proof.
    exists (mkChunk 65536 512 496 512 65568). split.
    - split; [|vm_compute; auto]. apply (ginv_single c0 s0 (mkChunk 65536 512 496 512 65568)); try reflexivity.
      + unfold chunk_ok, chunk_geom, content_start, content_end, c0, W, IMAX.
        cbn [cbase csize creq cgranted cpos up hs ha].
        split; [|lia]. split; [lia|]. split; [exists 4096; reflexivity|]. split; [exists 32; reflexivity|].
        split; [intros; discriminate|]. lia.
      + split; [exact pow2_1|vm_compute; discriminate].
      + exists 65568. reflexivity.
    - vm_compute. reflexivity.
  Qed.
End LoopExample.
