(* ArenaReserve.v — RawBump::reserve walks the chunk list from the current chunk: it subtracts what the current chunk
   has left, then the capacity of every later chunk, with `checked_sub` — stopping as soon as a subtraction would go
   below zero (enough room) — and asks for a new chunk for what is left unless that is zero.  The arena model
   (Arena.step, OReserve) uses the closed form: nothing to do iff the request is at most the sum, otherwise a chunk
   for the difference.  reserve_walk is the loop as the code writes it; the theorem is that the two agree. *)
From Coq Require Import ZArith List Lia.
From BS Require Import Word Arena.
Import ListNotations.
Open Scope Z_scope.

(* None = the existing chunks suffice (return Ok(())); Some r = append a chunk for r more bytes *)
Fixpoint reserve_walk_rest (additional : Z) (caps_after : list Z) : option Z :=
  match caps_after with
  | [] => if additional =? 0 then None else Some additional
  | cap :: t =>
    match checked_sub additional cap with
    | Some rest => reserve_walk_rest rest t
    | None => None
    end
  end.

Definition reserve_walk (n remaining_cur : Z) (caps_after : list Z) : option Z :=
  match checked_sub n remaining_cur with
  | Some rest => reserve_walk_rest rest caps_after
  | None => None
  end.

Lemma reserve_walk_rest_closed additional caps :
  0 <= additional -> Forall (fun x => 0 <= x) caps ->
  reserve_walk_rest additional caps =
  if additional <=? sumZ caps then None else Some (additional - sumZ caps).
Proof.
  revert additional. induction caps as [|cap t IH]; intros a Ha Hc.
  - cbn [reserve_walk_rest sumZ fold_right]. unfold sumZ. cbn.
    destruct (Z.eqb_spec a 0); destruct (Z.leb_spec a 0); try lia; try reflexivity. f_equal. lia.
  - inversion Hc as [|? ? Hcap Ht]; subst. cbn [reserve_walk_rest]. unfold checked_sub.
    assert (Es : sumZ (cap :: t) = cap + sumZ t) by reflexivity. rewrite Es.
    assert (Hs : 0 <= sumZ t).
    { clear - Ht. induction Ht as [|x l Hx _ IHl]; [unfold sumZ; cbn; lia|]. change (sumZ (x :: l)) with (x + sumZ l). lia. }
    destruct (Z.leb_spec 0 (a - cap)).
    + rewrite IH by (try assumption; lia).
      destruct (Z.leb_spec (a - cap) (sumZ t)); destruct (Z.leb_spec a (cap + sumZ t)); try lia; try reflexivity.
      f_equal. lia.
    + destruct (Z.leb_spec a (cap + sumZ t)); [reflexivity|lia].
Qed.

Theorem reserve_walk_closed_form n remaining_cur caps :
  0 <= n -> 0 <= remaining_cur -> Forall (fun x => 0 <= x) caps ->
  reserve_walk n remaining_cur caps =
  let avail := remaining_cur + sumZ caps in
  if n <=? avail then None else Some (n - avail).
Proof.
  (* the current chunk is the first of the chunks the loop subtracts *)
  intros Hn Hr Hc. change (reserve_walk n remaining_cur caps) with (reserve_walk_rest n (remaining_cur :: caps)).
  rewrite reserve_walk_rest_closed by (try constructor; assumption). reflexivity.
Qed.

Example reserve_walk_example :
  reserve_walk 100 30 [40; 20] = Some 10 /\ reserve_walk 90 30 [40; 20] = None /\ reserve_walk 20 30 [40] = None.
Proof. vm_compute. repeat split; reflexivity. Qed.
