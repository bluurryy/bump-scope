(* CapRefine.v — the capacity-growth decisions of the CURRENT vector sources
   (src/bump_vec.rs, src/mut_bump_vec.rs, src/mut_bump_vec_rev.rs: generic_reserve, generic_reserve_exact,
   generic_reserve_one, generic_grow_amortized, generic_grow_exact — cut out by tools/capsites.py and
   translated by tools/rs2v.py into gen/CapSites.v on every run) compute what the hand-written
   capacity model VecCap.v computes: when a reserve grows, and which capacity it then asks
   generic_grow_to for (or that it reports a capacity overflow).  `Ok` on the left also says that
   the code's unchecked arithmetic (`capacity - len`, MutBumpVec's `capacity * 2`) cannot wrap for a
   vector whose length is at most its capacity and whose capacity is at most isize::MAX. *)
From Coq Require Import ZArith Lia.
From BS Require Import Word VecCap.
From BS.gen Require CapSites.
Open Scope Z_scope.

Definition amortized_target (sz len cap add : Z) : option Z :=
  if W <=? len + add then None
  else Some (Z.max (Z.max (if W <=? cap * 2 then len + add else cap * 2) (len + add)) (min_non_zero_cap sz)).

Definition exact_target (len add : Z) : option Z :=
  if W <=? len + add then None else Some (len + add).

Lemma grow_amortized_by_target sz al s add grant got :
  grow_amortized sz al s add grant got =
  match amortized_target sz (vlen s) (vcap s) add with
  | None => (s, mkVO (Some VOverflow) false)
  | Some c => grow_to sz al s c grant got
  end.
Proof. unfold grow_amortized, amortized_target. destruct (W <=? vlen s + add); reflexivity. Qed.

Lemma grow_exact_by_target sz al s add grant got :
  grow_exact sz al s add grant got =
  match exact_target (vlen s) add with
  | None => (s, mkVO (Some VOverflow) false)
  | Some c => grow_to sz al s c grant got
  end.
Proof. unfold grow_exact, exact_target. destruct (W <=? vlen s + add); reflexivity. Qed.

Lemma min_non_zero_cap_call {R} sz : @call R Z (CapSites.min_non_zero_cap sz) = Norm (min_non_zero_cap sz).
Proof. reflexivity. Qed.

Lemma checked_add_case len add :
  checked_add len add = if W <=? len + add then None else Some (len + add).
Proof. unfold checked_add. destruct (Z.ltb_spec (len + add) W); destruct (Z.leb_spec W (len + add)); try reflexivity; lia. Qed.

(* reserve_one tests `capacity == len` where the model tests `capacity - len < 1` *)
Lemma full_is_no_room_for_one len cap : len <= cap -> (cap =? len) = (cap - len <? 1).
Proof. intros H. destruct (Z.eqb_spec cap len), (Z.ltb_spec (cap - len) 1); try reflexivity; lia. Qed.


Theorem bv_grow_amortized_refines len cap add sz :
  CapSites.bv_grow_amortized len cap add sz = Ok (amortized_target sz len cap add).
Proof.
  unfold CapSites.bv_grow_amortized, amortized_target. rewrite checked_add_case.
  destruct (W <=? len + add); [reflexivity|].
  cbn [bindc]. rewrite min_non_zero_cap_call. cbn [bindc run].
  unfold checked_mul.
  (* closed by arithmetic, not by syntactic equality: the operands of `max` may be written in any order *)
  destruct (Z.ltb_spec (cap * 2) W); destruct (Z.leb_spec W (cap * 2)); try lia; first [reflexivity | f_equal; f_equal; lia].
Qed.

Theorem bv_grow_exact_refines len cap add sz :
  CapSites.bv_grow_exact len cap add sz = Ok (exact_target len add).
Proof.
  unfold CapSites.bv_grow_exact, exact_target. rewrite checked_add_case.
  destruct (W <=? len + add); reflexivity.
Qed.

(* `sx_site calls` (Word.v) unfolds the cut-out function and runs it; these call no other function *)
Theorem bv_reserve_grows_refines len cap add :
  len <= cap -> CapSites.bv_reserve_grows len cap add = Ok (cap - len <? add).
Proof. intros H. sx_site sx_nocalls. reflexivity. Qed.

Theorem bv_reserve_exact_grows_refines len cap add :
  len <= cap -> CapSites.bv_reserve_exact_grows len cap add = Ok (cap - len <? add).
Proof. intros H. sx_site sx_nocalls. reflexivity. Qed.

Theorem bv_reserve_one_grows_refines len cap :
  len <= cap -> CapSites.bv_reserve_one_grows len cap = Ok (cap - len <? 1).
Proof. intros H. rewrite <- (full_is_no_room_for_one len cap H). reflexivity. Qed.

Lemma amortized_no_wrap sz len cap add :
  0 <= cap <= IMAX -> amortized_target sz len cap add =
  if W <=? len + add then None else Some (Z.max (Z.max (cap * 2) (len + add)) (min_non_zero_cap sz)).
Proof.
  intros Hc. unfold amortized_target. destruct (W <=? len + add); [reflexivity|].
  assert (E : W <=? cap * 2 = false). { apply Z.leb_gt. rewrite IMAX_val in Hc. rewrite W_val. lia. }
  rewrite E. reflexivity.
Qed.

Theorem mv_grow_amortized_refines len cap add sz :
  0 <= cap <= IMAX -> CapSites.mv_grow_amortized len cap add sz = Ok (amortized_target sz len cap add).
Proof.
  intros Hc. rewrite amortized_no_wrap by exact Hc.
  unfold CapSites.mv_grow_amortized. rewrite checked_add_case.
  destruct (W <=? len + add); [reflexivity|].
  cbn [bindc]. rewrite mul_ok by (rewrite IMAX_val in Hc; rewrite W_val; lia).
  cbn [bindc]. rewrite min_non_zero_cap_call. cbn [bindc run]. first [reflexivity | f_equal; f_equal; lia].
Qed.

Theorem rv_grow_amortized_refines len cap add sz :
  0 <= cap <= IMAX -> CapSites.rv_grow_amortized len cap add sz = Ok (amortized_target sz len cap add).
Proof.
  intros Hc. rewrite amortized_no_wrap by exact Hc.
  unfold CapSites.rv_grow_amortized. rewrite checked_add_case.
  destruct (W <=? len + add); [reflexivity|].
  cbn [bindc]. rewrite mul_ok by (rewrite IMAX_val in Hc; rewrite W_val; lia).
  cbn [bindc]. rewrite min_non_zero_cap_call. cbn [bindc run]. first [reflexivity | f_equal; f_equal; lia].
Qed.

Theorem mv_grow_exact_refines len cap add sz :
  CapSites.mv_grow_exact len cap add sz = Ok (exact_target len add).
Proof. unfold CapSites.mv_grow_exact, exact_target. rewrite checked_add_case. destruct (W <=? len + add); reflexivity. Qed.

Theorem rv_grow_exact_refines len cap add sz :
  CapSites.rv_grow_exact len cap add sz = Ok (exact_target len add).
Proof. unfold CapSites.rv_grow_exact, exact_target. rewrite checked_add_case. destruct (W <=? len + add); reflexivity. Qed.

Theorem mv_reserve_grows_refines len cap add :
  len <= cap -> CapSites.mv_reserve_grows len cap add = Ok (cap - len <? add)
             /\ CapSites.mv_reserve_exact_grows len cap add = Ok (cap - len <? add)
             /\ CapSites.mv_reserve_one_grows len cap = Ok (cap - len <? 1).
Proof.
  intros H. rewrite <- (full_is_no_room_for_one len cap H). repeat split; sx_site sx_nocalls; reflexivity.
Qed.

Theorem rv_reserve_grows_refines len cap add :
  len <= cap -> CapSites.rv_reserve_grows len cap add = Ok (cap - len <? add)
             /\ CapSites.rv_reserve_exact_grows len cap add = Ok (cap - len <? add)
             /\ CapSites.rv_reserve_one_grows len cap = Ok (cap - len <? 1).
Proof.
  intros H. rewrite <- (full_is_no_room_for_one len cap H). repeat split; sx_site sx_nocalls; reflexivity.
Qed.

Theorem bv_reserve_is_model sz al s n grant got :
  vlen s <= vcap s ->
  reserve sz al s n grant got =
  match CapSites.bv_reserve_grows (vlen s) (vcap s) n with
  | Ok true =>
    match CapSites.bv_grow_amortized (vlen s) (vcap s) n sz with
    | Ok (Some c) => grow_to sz al s c grant got
    | _ => (s, mkVO (Some VOverflow) false)
    end
  | _ => quiet s
  end.
Proof.
  intros H. rewrite bv_reserve_grows_refines by exact H. rewrite bv_grow_amortized_refines.
  unfold reserve. destruct (vcap s - vlen s <? n); [|reflexivity].
  rewrite grow_amortized_by_target. destruct (amortized_target sz (vlen s) (vcap s) n); reflexivity.
Qed.

Theorem mv_reserve_is_model sz al s n grant got :
  vlen s <= vcap s -> 0 <= vcap s <= IMAX ->
  reserve sz al s n grant got =
  match CapSites.mv_reserve_grows (vlen s) (vcap s) n with
  | Ok true =>
    match CapSites.mv_grow_amortized (vlen s) (vcap s) n sz with
    | Ok (Some c) => grow_to sz al s c grant got
    | _ => (s, mkVO (Some VOverflow) false)
    end
  | _ => quiet s
  end.
Proof.
  intros H Hc. destruct (mv_reserve_grows_refines (vlen s) (vcap s) n H) as [E _]. rewrite E.
  rewrite mv_grow_amortized_refines by exact Hc.
  unfold reserve. destruct (vcap s - vlen s <? n); [|reflexivity].
  rewrite grow_amortized_by_target. destruct (amortized_target sz (vlen s) (vcap s) n); reflexivity.
Qed.
