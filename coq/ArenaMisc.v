(* ArenaMisc.v — theorems for C03 (scopes), C05 (chunk ledger), C07 (failure), C13 (reclaim /
   opt-outs) over the arena model. *)
From Coq Require Import ZArith List Bool Lia Permutation.
From BS Require Import Word BumpSpec Arena ArenaInv ArenaStats.
Import ListNotations.
Open Scope Z_scope.

Lemma is_top_tick_other s h : h <> depth s -> is_top (tick s) h = false.
Proof. intros Hne. apply Nat.eqb_neq. exact Hne. Qed.

Lemma new_events_nil s s' : ledger s' = ledger s -> new_events s s' = [].
Proof. intros E. unfold new_events. rewrite E, Nat.sub_diag. reflexivity. Qed.

Theorem no_dealloc_setting c s p sz : deallocates c = false -> raw_dealloc c s p sz = s.
Proof. intros H. unfold raw_dealloc. rewrite H. reflexivity. Qed.

Theorem nonlast_dealloc_noop c s p sz : is_last c s p sz = false -> raw_dealloc c s p sz = s.
Proof. intros H. unfold raw_dealloc. destruct (negb (deallocates c)); [reflexivity|]. rewrite H. reflexivity. Qed.

(* C13: WithoutDealloc anywhere in the wrapper stack, or DEALLOCATES = false *)
Theorem dealloc_optout_keeps_stats c s h ws b r :
  (has_wrapper WDealloc ws = true \/ deallocates c = false) ->
  let s' := fst (step c s (ODealloc h ws b) r) in
  chunks s' = chunks s /\ cur s' = cur s /\ arena_stats c s' = arena_stats c s.
Proof.
  intros H. cbv zeta. cbn [step]. destruct (find_block (tick s) b) as [blk|]; [|repeat split].
  assert (E : forall x, chunks x = chunks s -> cur x = cur s -> arena_stats c x = arena_stats c s).
  { intros x E1 E2. unfold arena_stats, cur_chunk, chunks_before, chunks_after. rewrite E1, E2. reflexivity. }
  destruct H as [H|H].
  - rewrite H, orb_true_r. cbn [fst]. repeat split; try (apply E; reflexivity).
  - destruct (negb (is_top (tick s) h) || has_wrapper WDealloc ws); cbn [fst]; [repeat split; apply E; reflexivity|].
    rewrite no_dealloc_setting by exact H. repeat split; try (apply E; reflexivity).
Qed.

Theorem nonlast_dealloc_keeps_everything c s h ws b blk r :
  find_block (tick s) b = Some blk ->
  is_last c (remove_block (tick s) b) (bptr blk) (bsize blk) = false ->
  let s' := fst (step c s (ODealloc h ws b) r) in
  chunks s' = chunks s /\ cur s' = cur s /\ forall a, mem s' a = mem s a.
Proof.
  intros Hf Hl. cbv zeta. cbn [step]. rewrite Hf.
  destruct (negb (is_top (tick s) h) || has_wrapper WDealloc ws); cbn [fst]; [repeat split|].
  rewrite nonlast_dealloc_noop by exact Hl. repeat split.
Qed.

(* C13: WithoutShrink::shrink never gives memory back (when the alignment does not fit, only an
   allocation happens) *)
Theorem without_shrink_fit_keeps_state c s p osz oal nsz nal r :
  divides nal p = true -> fst (ws_shrink c s p osz oal nsz nal r) = s.
Proof. intros H. unfold ws_shrink. rewrite H. reflexivity. Qed.

Theorem no_shrink_setting_fit_keeps_state c s p osz oal nsz nal r :
  shrinks c = false -> divides nal p = true -> fst (raw_shrink c s p osz oal nsz nal r) = s.
Proof. intros Hs Hd. unfold raw_shrink. rewrite Hd, Hs. reflexivity. Qed.

(* C13: reclaiming the newest block makes its space reusable *)
Theorem dealloc_then_alloc_same_address_up c m ch p size align :
  cfg_ok c -> up c = true -> chunk_ok c ch -> valid_min_align m -> valid_layout size align ->
  (m | p) -> (align | p) -> (m | size) -> content_start c ch <= p -> p + size = cpos ch ->
  chunk_alloc c m (set_pos ch (align_posZ true m p)) size align = Some (p, ch).
Proof.
  intros Hc Hup [Hg Hpos] Hm Hl Hmp Hap Hms Hcs Hlast.
  pose proof (min_align_pos _ Hm) as Hmpos. destruct Hl as (Ha2 & Hs0 & Hl3).
  pose proof (pow2_pos _ Ha2) as Hapos.
  unfold align_posZ. rewrite up_align_id by assumption.
  unfold chunk_alloc. rewrite Hup. cbn [set_pos cpos].
  change (content_end c (set_pos ch p)) with (content_end c ch).
  unfold spec_up. rewrite up_align_id by assumption.
  destruct (Z.leb_spec p (content_end c ch)); [|lia]. destruct (Z.leb_spec (p + size) (content_end c ch)); [|lia].
  cbn [andb]. rewrite up_align_id by (try assumption; apply Z.divide_add_r; assumption).
  rewrite Hlast. destruct ch; reflexivity.
Qed.

(* C13: the newest block grows where it is: same address, no copy, no request *)
Theorem grow_newest_in_place_up c s ptr osize oalign nsize nalign r ch :
  up c = true -> is_last c s ptr osize = true -> divides nalign ptr = true ->
  cur_chunk s = Some ch -> nsize <= content_end c ch - ptr ->
  raw_grow c s ptr osize oalign nsize nalign r =
    (set_cur_pos s (up_alignZ (ptr + nsize) (malign s)), inl (mkRO ptr nsize false)).
Proof.
  intros Hup Hl Hd Hc Hfit. unfold raw_grow. rewrite Hup, Hl, Hd, Hc. cbn [andb].
  destruct (Z.leb_spec nsize (content_end c ch - ptr)); [reflexivity|lia].
Qed.

Corollary grow_newest_in_place_up_step c s0 h ws b nsize nalign zeroed r blk ch :
  up c = true -> find_block (tick s0) b = Some blk -> is_top (tick s0) h = true ->
  is_last c (tick s0) (bptr blk) (bsize blk) = true -> divides nalign (bptr blk) = true ->
  cur_chunk (tick s0) = Some ch -> nsize <= content_end c ch - bptr blk ->
  exists id, o_res (snd (step c s0 (OGrow h ws b nsize nalign zeroed) r)) = RBlock id (bptr blk) nsize /\
             o_events (snd (step c s0 (OGrow h ws b nsize nalign zeroed) r)) = [].
Proof.
  intros Hup Hf Ht Hl Hd Hc Hfit. cbn [step]. set (s := tick s0) in *. rewrite Hf, Ht. cbn [negb].
  rewrite (grow_newest_in_place_up c s _ _ _ _ _ r ch Hup Hl Hd Hc Hfit). cbn [ro_ptr ro_size ro_ub].
  unfold add_block. cbn [snd o_res o_events]. eexists. split; [reflexivity|].
  apply new_events_nil. cbn [ledger bump_id upd_live remove_block].
  destruct zeroed; cbn [ledger zero_fill upd_mem]; rewrite set_cur_pos_only_chunks; reflexivity.
Qed.

Theorem checkpoint_records_position c s r :
  match o_res (snd (step c s (OCheckpoint (depth s)) r)) with
  | RCheckpoint cp => cp_state cp = cur s /\
                      (forall ch, cur_chunk s = Some ch -> cp_addr cp = cpos ch)
  | _ => False
  end.
Proof.
  cbn [step snd o_res]. unfold is_top. cbn [tick depth]. rewrite Nat.eqb_refl. cbn [cp_state cp_addr].
  split; [reflexivity|]. intros ch H. unfold cur_chunk in *. cbn [tick cur chunks] in *. rewrite H. reflexivity.
Qed.

(* C03: reset_to leaves every other chunk as it is (later chunks stay available) and never calls the
   base allocator *)
Theorem reset_to_restores c s h cp j ch r :
  cp_state cp = Cur j -> nth_error (chunks s) j = Some ch ->
  let s' := fst (step c s (OResetTo h cp) r) in
  cur s' = Cur j /\ nth_error (chunks s') j = Some (set_pos ch (cp_addr cp)) /\
  length (chunks s') = length (chunks s) /\
  (forall k, k <> j -> nth_error (chunks s') k = nth_error (chunks s) k) /\
  o_events (snd (step c s (OResetTo h cp) r)) = [].
Proof.
  intros Ecp En. cbv zeta. cbn [step]. unfold do_reset_to. rewrite Ecp. cbn [chunks upd_live tick]. rewrite En.
  cbn [fst snd cur chunks upd_cur upd_chunks o_events].
  split; [reflexivity|]. split; [apply nth_error_set_nth_eq; eapply nth_error_some_lt; exact En|].
  split; [apply set_nth_length|]. split; [intros k Hk; apply nth_error_set_nth_neq; congruence|].
  apply new_events_nil. reflexivity.
Qed.

(* C03: so restoring the current chunk and its position restores the count *)
Theorem allocated_depends_on_prefix c s1 s2 j ch1 ch2 :
  cur s1 = Cur j -> cur s2 = Cur j ->
  nth_error (chunks s1) j = Some ch1 -> nth_error (chunks s2) j = Some ch2 ->
  same_geom ch1 ch2 -> cpos ch1 = cpos ch2 ->
  Forall2 same_geom (firstn j (chunks s1)) (firstn j (chunks s2)) ->
  st_allocated (arena_stats c s1) = st_allocated (arena_stats c s2).
Proof.
  intros E1 E2 N1 N2 Hg Hp HF. unfold arena_stats, cur_chunk, chunks_before. rewrite E1, E2, N1, N2.
  cbn [st_allocated]. f_equal.
  - destruct (same_geom_content c _ _ Hg) as [A B]. unfold allocated_in. rewrite A, B, Hp. reflexivity.
  - induction HF as [|a b l l' Hab Hl IH]; [reflexivity|]. cbn [map]. unfold sumZ in *. cbn [fold_right].
    destruct (same_geom_content c _ _ Hab) as [A B]. unfold capacity at 1 3. rewrite A, B. f_equal. exact IH.
Qed.

Theorem reset_to_start_releases_none c s r : o_events (snd (step c s OResetToStart r)) = [].
Proof.
  cbn [step]. cbn [cur chunks upd_live tick]. destruct (cur s); [destruct (chunks s)| |];
    apply new_events_nil; reflexivity.
Qed.

(* C05: every chunk exactly once, with the layout it was granted for *)
Theorem drop_releases_each_chunk_once c s i :
  cur s = Cur i -> (i < length (chunks s))%nat ->
  Permutation (drop_events c s) (map (dealloc_event c) (chunks s)).
Proof.
  intros Ec Hi. unfold drop_events. rewrite Ec.
  destruct (nth_error (chunks s) i) as [ch|] eqn:En; [|apply nth_error_None in En; lia].
  pose proof (split_at _ _ _ En) as Hs.
  remember (chunks s) as cs eqn:Ecs. clear Ecs.
  assert (E : map (dealloc_event c) cs =
              map (dealloc_event c) (firstn i cs) ++ dealloc_event c ch :: map (dealloc_event c) (skipn (S i) cs)).
  { rewrite Hs at 1. rewrite map_app. reflexivity. }
  rewrite E. rewrite map_rev. eapply Permutation_trans.
  - apply Permutation_app; [symmetry; apply Permutation_rev|apply Permutation_refl].
  - apply Permutation_app_head. apply Permutation_sym. apply Permutation_cons_append.
Qed.

Theorem released_layout_fits c ch :
  chunk_geom c ch ->
  match dealloc_event c ch with
  | EvDealloc addr size align => addr = cbase ch /\ align = ha c /\ creq ch <= size <= cgranted ch
  | _ => False
  end.
Proof. intros (_ & _ & _ & _ & _ & G6 & G7 & _). cbn. repeat split; assumption. Qed.

Theorem reset_keeps_exactly_last c s i lst t r :
  cur s = Cur i -> rev (chunks s) = lst :: t ->
  chunks (fst (step c s OReset r)) = [reset_chunk c lst].
Proof.
  intros Ec Er. cbn [step]. cbn [cur upd_live tick]. rewrite Ec. cbn [chunks upd_live tick]. rewrite Er.
  cbn [fst chunks upd_cur upd_chunks]. reflexivity.
Qed.

(* C07: the answer None is a refusal *)
Theorem refused_grow_is_error c s size align :
  exists e, snd (grow_arena c s size align None) = Some e /\
            chunks (fst (grow_arena c s size align None)) = chunks s /\
            cur (fst (grow_arena c s size align None)) = cur s /\
            frame s (fst (grow_arena c s size align None)).
Proof.
  unfold grow_arena. destruct (new_chunk_size _ _ _ _).
  - exists ErrAlloc. cbn. repeat split.
  - exists ErrOverflow. cbn. repeat split.
Qed.

Theorem overflow_is_error c s size align r :
  new_chunk_size c (prev_size s) size align = None ->
  grow_arena c s size align r = (s, Some ErrOverflow).
Proof. intros H. unfold grow_arena. fold (prev_size s). rewrite H. reflexivity. Qed.

(* C07; by ArenaInv.step_inv_partial the state still satisfies the invariant *)
Theorem failed_alloc_keeps_live_and_memory c s h ws size align zeroed r e :
  o_res (snd (step c s (OAlloc h ws size align zeroed) r)) = RErr e ->
  let s' := fst (step c s (OAlloc h ws size align zeroed) r) in
  live s' = live s /\ (forall a, mem s' a = mem s a) /\ depth s' = depth s /\ aligns s' = aligns s.
Proof.
  cbn [step]. set (s1 := tick s). destruct (negb (is_top s1 h)); [cbn; intros _; repeat split|].
  pose proof (raw_alloc_frame c s1 size align r) as Hf.
  destruct (raw_alloc c s1 size align r) as [s2 [p|e0]]; cbn [fst] in Hf.
  - destruct (add_block _ _ _ _); cbn. discriminate.
  - cbn [snd fst o_res]. intros _. destruct Hf as (F1 & F2 & F3 & F4 & _).
    rewrite F1, F2, F3, F4. repeat split.
Qed.

Theorem failed_alloc_still_satisfies_invariant c s h ws size align zeroed r :
  cfg_ok c -> inv c s -> valid_layout size align -> resp_ok c s size align r ->
  inv c (fst (step c s (OAlloc h ws size align zeroed) r)).
Proof. intros. apply step_inv_alloc; assumption. Qed.

Theorem claimed_alloc_fails c s h ws size align zeroed r :
  h <> depth s ->
  step c s (OAlloc h ws size align zeroed) r = (tick s, mkOut (RErr ErrClaimed) [] false).
Proof.
  intros Hne. cbn [step]. rewrite (is_top_tick_other s h Hne). cbn [negb].
  rewrite new_events_nil by reflexivity. reflexivity.
Qed.
