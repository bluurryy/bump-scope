(* SplitCapProofs.v — C16: the windows of split_off hold exactly the two parts, tile the buffer,
   and the spare capacity stays with the window at the end of the buffer. *)
From Coq Require Import List Arith Lia.
From BS Require Import Colls CollsProofs SplitCap.
Import ListNotations.

Lemma rotate_left_length {A} (l : list A) n : length (rotate_left l n) = length l.
Proof. unfold rotate_left. rewrite app_length, skipn_length, firstn_length. lia. Qed.

Lemma split_off_buffer_length {A} (l : list A) a b : a <= b <= length l ->
  length (split_off_buffer l a b) = length l.
Proof.
  intros [H1 H2]. unfold split_off_buffer.
  destruct (b =? length l); [reflexivity|].
  destruct (a =? 0); [reflexivity|].
  destruct (a =? b); [reflexivity|].
  destruct (a <? length l - b).
  - unfold rotate_right. rewrite app_length, rotate_left_length, firstn_length, skipn_length. lia.
  - rewrite app_length, rotate_left_length, firstn_length, skipn_length. lia.
Qed.

Theorem split_off_windows_hold_the_parts {A} (l : list A) cap a b : a <= b <= length l ->
  split_off_code l a b =
  (wview (split_off_buffer l a b) (fst (split_off_windows (length l) cap a b)),
   wview (split_off_buffer l a b) (snd (split_off_windows (length l) cap a b))).
Proof.
  intros [H1 H2].
  pose proof (split_off_buffer_length l a b (conj H1 H2)) as HL.
  unfold split_off_code, split_off_windows, wview in *. unfold split_off_buffer in *.
  (* in every branch the code cuts the buffer it has rotated exactly where the windows lie; a window
     that reaches the end of the initialised part takes all that is left *)
  destruct (Nat.eqb_spec b (length l)) as [Hb|Hb].
  { cbn [fst snd woff wlen wcap skipn]. f_equal. symmetry. apply firstn_to_end. lia. }
  destruct (Nat.eqb_spec a 0) as [Ha|Ha].
  { cbn [fst snd woff wlen wcap skipn]. f_equal. symmetry. apply firstn_to_end. lia. }
  destruct (Nat.eqb_spec a b) as [Hab|Hab].
  { cbn [fst snd woff wlen wcap skipn firstn]. f_equal. rewrite firstn_all. reflexivity. }
  (* strictly inside: rotated to the front, or to the back *)
  destruct (a <? length l - b) eqn:Hlt; cbv zeta; cbn [fst snd woff wlen wcap skipn];
    f_equal; symmetry; apply firstn_to_end; lia.
Qed.

(* stated with sums, so that what follows needs no case analysis on truncated subtraction *)
Lemma split_off_windows_shape len cap a b : a <= b <= len ->
  exists r m, b = a + r /\ len = m + r /\
    (split_off_windows len cap a b = (mkVwin 0 m m, mkVwin m r (cap - m)) \/
     split_off_windows len cap a b = (mkVwin r m (cap - r), mkVwin 0 r r) \/
     r = 0 /\ split_off_windows len cap a b = (mkVwin 0 len cap, mkVwin 0 0 0)).
Proof.
  intros [H1 H2]. unfold split_off_windows.
  destruct (Nat.eqb_spec b len) as [Hb|Hb].
  { exists (len - a), a. split; [lia|]. split; [lia|]. left. reflexivity. }
  destruct (Nat.eqb_spec a 0) as [Ha|Ha].
  { exists b, (len - b). split; [lia|]. split; [lia|]. right; left. reflexivity. }
  destruct (Nat.eqb_spec a b) as [Hab|Hab].
  { exists 0, len. split; [lia|]. split; [lia|]. right; right. split; reflexivity. }
  exists (b - a), (len - (b - a)). split; [lia|]. split; [lia|].
  destruct (a <? len - b); [right; left|left]; reflexivity.
Qed.

Theorem split_off_windows_tile len cap a b : a <= b <= len -> len <= cap ->
  let k := fst (split_off_windows len cap a b) in
  let o := snd (split_off_windows len cap a b) in
  wlen k <= wcap k /\ wlen o <= wcap o /\
  wcap k + wcap o = cap /\ wlen k + wlen o = len /\ wlen o = b - a /\
  woff k + wcap k <= cap /\ woff o + wcap o <= cap /\
  (woff k + wcap k <= woff o \/ woff o + wcap o <= woff k).
Proof.
  intros H H3. destruct (split_off_windows_shape len cap a b H) as (r & m & -> & -> & [E|[E|[-> E]]]);
    rewrite E; cbn [fst snd woff wlen wcap]; lia.
Qed.

Theorem split_off_spare_goes_to_the_end len cap a b : a <= b <= len -> len <= cap ->
  let k := fst (split_off_windows len cap a b) in
  let o := snd (split_off_windows len cap a b) in
  (wcap k - wlen k) + (wcap o - wlen o) = cap - len /\
  (woff k < woff o -> wcap k = wlen k /\ woff o + wcap o = cap) /\
  (woff o < woff k -> wcap o = wlen o /\ woff k + wcap k = cap).
Proof.
  intros H H3. destruct (split_off_windows_shape len cap a b H) as (r & m & -> & -> & [E|[E|[-> E]]]);
    rewrite E; cbn [fst snd woff wlen wcap]; lia.
Qed.

Corollary split_off_windows_spec {A} (l : list A) cap a b : a <= b <= length l ->
  wview (split_off_buffer l a b) (fst (split_off_windows (length l) cap a b)) = firstn a l ++ skipn b l /\
  wview (split_off_buffer l a b) (snd (split_off_windows (length l) cap a b)) = firstn (b - a) (skipn a l).
Proof.
  intros H. pose proof (split_off_windows_hold_the_parts l cap a b H) as E.
  rewrite (split_off_code_spec l a b H) in E. inversion E. split; reflexivity.
Qed.

Module SplitCapExample.
  (* head (1) < tail (3): the range is rotated to the front *)
  Example windows : split_off_windows 6 10 1 3 = (mkVwin 2 4 8, mkVwin 0 2 2).
  Proof. reflexivity. Qed.
  Example parts : split_off_code [0;1;2;3;4;5] 1 3 = ([0;3;4;5], [1;2]) /\ split_off_buffer [0;1;2;3;4;5] 1 3 = [1;2;0;3;4;5].
  Proof. split; reflexivity. Qed.
End SplitCapExample.

Theorem spare_windows_tile len cap : len <= cap ->
  let '(i, s) := spare_windows len cap in
  woff i = 0 /\ wlen i = len /\ woff s = woff i + wlen i /\ wlen s = 0 /\
  wcap i + wcap s = cap /\ woff s + wcap s = cap.
Proof. intros H. unfold spare_windows. cbn. lia. Qed.

Theorem flatten_keeps_count_and_order {A} (l : list (list A)) n :
  Forall (fun x => length x = n) l ->
  length (flatten_list l) = length l * n /\
  (forall i j x, nth_error l i = Some x -> j < n -> nth_error (flatten_list l) (i * n + j) = nth_error x j).
Proof.
  unfold flatten_list. induction 1 as [|y ys Hy _ [IHl IHn]]; [split; [reflexivity|intros [|i]; discriminate]|].
  cbn [concat length]. split; [rewrite app_length, IHl; lia|].
  intros [|i] j x Hi Hj; cbn in Hi.
  - injection Hi as <-. cbn [Nat.mul Nat.add]. rewrite nth_error_app1 by lia. reflexivity.
  - rewrite nth_error_app2 by lia. replace (S i * n + j - length y) with (i * n + j) by lia. apply IHn; assumption.
Qed.

(* into_flattened: offset, length and capacity of the window are counted in elements, so all three scale by n *)
Theorem flatten_window_scales w n :
  wlen w <= wcap w ->
  let f := flatten_window w n in
  wlen f = wlen w * n /\ wcap f = wcap w * n /\ woff f = woff w * n /\ wlen f <= wcap f.
Proof. intros H. unfold flatten_window. cbn. repeat split; try reflexivity. apply Nat.mul_le_mono_r, H. Qed.
