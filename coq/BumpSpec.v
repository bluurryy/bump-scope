(* BumpSpec.v — unbounded-Z specifications of the four bump computations and their
   characterisation (sound / tight / nearest / maximal).  Independent of generated code. *)
From Coq Require Import ZArith Lia Bool.
From BS Require Import Word.
Open Scope Z_scope.

(* upwards: block as near to `start` as alignment allows; returns (ptr, new_pos) *)
Definition spec_up (start end_ min_align size align : Z) : option (Z * Z) :=
  let q := up_alignZ start align in
  if (start <=? end_) && (q + size <=? end_)
  then Some (q, up_alignZ (q + size) min_align) else None.

(* downwards: block as near to `end_` as alignment allows; ptr = new_pos *)
Definition spec_down (start end_ min_align size align : Z) : option Z :=
  let p := down_alignZ (end_ - size) (Z.max align min_align) in
  if (start <=? end_) && (start <=? p) then Some p else None.

Definition spec_prep_up (start end_ size align : Z) : option (Z * Z) :=
  let q := up_alignZ start align in
  if (start <=? end_) && (q + size <=? end_)
  then Some (q, down_alignZ end_ align) else None.

Definition spec_prep_down (start end_ size align : Z) : option (Z * Z) :=
  let e := down_alignZ end_ align in
  if (start <=? end_) && (start + size <=? e)
  then Some (up_alignZ start align, e) else None.

Definition valid_layout (size align : Z) : Prop :=
  pow2 align /\ 0 <= size /\ size + (align - 1) <= IMAX.

Definition valid_min_align (m : Z) : Prop := pow2 m /\ m <= 16.

(* BumpProps::debug_assert_valid, regular (non-dummy) range *)
Definition regular_up (start end_ m : Z) : Prop :=
  0 < start /\ start <= end_ /\ end_ < W /\ end_ - start <= IMAX /\ (m | start) /\ (16 | end_).
Definition regular_down (start end_ m : Z) : Prop :=
  0 < start /\ start <= end_ /\ end_ < W /\ end_ - start <= IMAX /\ (16 | start) /\ (m | end_).
(* the two static dummy ranges: capacity -16 *)
Definition dummy_range (start end_ : Z) : Prop :=
  0 < end_ /\ start = end_ + 16 /\ start < W /\ (16 | start) /\ (16 | end_).

Definition valid_up (start end_ m : Z) := regular_up start end_ m \/ dummy_range start end_.
Definition valid_down (start end_ m : Z) := regular_down start end_ m \/ dummy_range start end_.

Lemma min_align_div16 m : valid_min_align m -> (m | 16).
Proof. intros [Hp Hle]. apply pow2_divide; [assumption|apply pow2_16|assumption]. Qed.

Lemma min_align_pos m : valid_min_align m -> 0 < m.
Proof. intros [Hp _]. apply pow2_pos; assumption. Qed.

Theorem spec_up_sound start end_ m size align ptr np :
  valid_min_align m -> valid_layout size align -> regular_up start end_ m ->
  spec_up start end_ m size align = Some (ptr, np) ->
  (align | ptr) /\ start <= ptr /\ ptr + size <= np /\ np <= end_ /\ (m | np) /\
  np < ptr + size + m.
Proof.
  intros Hm [Ha [Hs Hl]] (H0 & Hse & HeW & Hsz & Hms & H16) H.
  pose proof (pow2_pos _ Ha) as Hap. pose proof (min_align_pos _ Hm) as Hmp.
  unfold spec_up in H.
  destruct ((start <=? end_) && (up_alignZ start align + size <=? end_)) eqn:E; [|discriminate].
  injection H as <- <-.
  apply andb_true_iff in E. destruct E as [_ E]. apply Z.leb_le in E.
  repeat split.
  - apply up_align_div; assumption.
  - apply up_align_ge; assumption.
  - apply up_align_ge; assumption.
  - apply up_align_min; [assumption| |assumption].
    eapply Z.divide_trans; [apply min_align_div16; eassumption|assumption].
  - apply up_align_div; assumption.
  - apply up_align_lt; assumption.
Qed.

Theorem spec_up_tight start end_ m size align :
  valid_layout size align -> regular_up start end_ m ->
  (spec_up start end_ m size align = None <->
   ~ exists q, (align | q) /\ start <= q /\ q + size <= end_).
Proof.
  intros [Ha [Hs Hl]] (H0 & Hse & HeW & Hsz & Hms & H16).
  pose proof (pow2_pos _ Ha) as Hap. unfold spec_up.
  destruct (Z.leb_spec start end_); [|lia]. cbn [andb].
  destruct (Z.leb_spec (up_alignZ start align + size) end_) as [Hfit|Hno].
  - split; [discriminate|]. intros Hn. exfalso. apply Hn.
    exists (up_alignZ start align). split; [apply up_align_div; assumption|].
    split; [apply up_align_ge; assumption|assumption].
  - split; [|reflexivity]. intros _ [q (Hq & Hge & Hle)].
    pose proof (up_align_min start q align Hap Hq Hge). lia.
Qed.

Theorem spec_up_nearest start end_ m size align ptr np q :
  valid_layout size align ->
  spec_up start end_ m size align = Some (ptr, np) ->
  (align | q) -> start <= q -> ptr <= q.
Proof.
  intros [Ha _] H Hq Hge. pose proof (pow2_pos _ Ha) as Hap. unfold spec_up in H.
  destruct ((start <=? end_) && (up_alignZ start align + size <=? end_)); [|discriminate].
  injection H as <- <-. apply up_align_min; assumption.
Qed.

Theorem spec_up_dummy start end_ m size align :
  0 <= size -> 0 < align -> dummy_range start end_ ->
  spec_up start end_ m size align = None.
Proof.
  intros Hs Ha (H0 & -> & _). unfold spec_up.
  destruct (Z.leb_spec (end_ + 16) end_); [lia|reflexivity].
Qed.

Theorem spec_down_sound start end_ m size align p :
  valid_min_align m -> valid_layout size align -> regular_down start end_ m ->
  spec_down start end_ m size align = Some p ->
  (align | p) /\ (m | p) /\ start <= p /\ p + size <= end_.
Proof.
  intros [Hmp2 Hm16] [Ha [Hs Hl]] (H0 & Hse & HeW & Hsz & H16 & Hme) H.
  pose proof (pow2_pos _ Ha) as Hap. pose proof (pow2_pos _ Hmp2) as Hmp.
  pose proof (pow2_max _ _ Ha Hmp2) as Hmx. pose proof (pow2_pos _ Hmx) as Hmxp.
  unfold spec_down in H.
  destruct ((start <=? end_) && (start <=? down_alignZ (end_ - size) (Z.max align m))) eqn:E;
    [|discriminate].
  injection H as <-. apply andb_true_iff in E. destruct E as [_ E]. apply Z.leb_le in E.
  repeat split.
  - apply down_align_div_finer; [assumption|]. apply pow2_divide; [assumption|assumption|lia].
  - apply down_align_div_finer; [assumption|]. apply pow2_divide; [assumption|assumption|lia].
  - assumption.
  - pose proof (down_align_le (end_ - size) (Z.max align m) Hmxp). lia.
Qed.

Theorem spec_down_tight start end_ m size align :
  valid_min_align m -> valid_layout size align -> regular_down start end_ m ->
  (spec_down start end_ m size align = None <->
   ~ exists q, (align | q) /\ start <= q /\ q + size <= end_).
Proof.
  intros [Hmp2 Hm16] [Ha [Hs Hl]] (H0 & Hse & HeW & Hsz & H16 & Hme).
  pose proof (pow2_pos _ Ha) as Hap. pose proof (pow2_pos _ Hmp2) as Hmp.
  pose proof (pow2_max _ _ Ha Hmp2) as Hmx. pose proof (pow2_pos _ Hmx) as Hmxp.
  unfold spec_down. destruct (Z.leb_spec start end_); [|lia]. cbn [andb].
  destruct (Z.leb_spec start (down_alignZ (end_ - size) (Z.max align m))) as [Hfit|Hno].
  - split; [discriminate|]. intros Hn. exfalso. apply Hn.
    exists (down_alignZ (end_ - size) (Z.max align m)). split.
    + apply down_align_div_finer; [assumption|]. apply pow2_divide; [assumption|assumption|lia].
    + split; [assumption|]. pose proof (down_align_le (end_ - size) (Z.max align m) Hmxp). lia.
  - split; [|reflexivity]. intros _ [q (Hq & Hge & Hle)].
    (* q' := q aligned down to max(align,m) is still >= start because 16 | start *)
    assert (Hq' : start <= down_alignZ q (Z.max align m)).
    { destruct (Z.max_spec align m) as [[Hlt ->]|[Hge' ->]].
      - apply down_align_max; [assumption| |assumption].
        eapply Z.divide_trans; [|exact H16]. apply pow2_divide; [assumption|apply pow2_16|assumption].
      - rewrite down_align_id; assumption. }
    pose proof (down_align_mono q (end_ - size) (Z.max align m) Hmxp ltac:(lia)). lia.
Qed.

Theorem spec_down_nearest start end_ m size align p q :
  valid_min_align m -> valid_layout size align ->
  spec_down start end_ m size align = Some p ->
  (Z.max align m | q) -> q + size <= end_ -> q <= p.
Proof.
  intros [Hmp2 _] [Ha _] H Hq Hle.
  pose proof (pow2_max _ _ Ha Hmp2) as Hmx. pose proof (pow2_pos _ Hmx) as Hmxp.
  unfold spec_down in H.
  destruct ((start <=? end_) && (start <=? down_alignZ (end_ - size) (Z.max align m)));
    [|discriminate].
  injection H as <-. apply down_align_max; [assumption|assumption|lia].
Qed.

Theorem spec_down_dummy start end_ m size align :
  dummy_range start end_ -> spec_down start end_ m size align = None.
Proof.
  intros (H0 & -> & _). unfold spec_down.
  destruct (Z.leb_spec (end_ + 16) end_); [lia|reflexivity].
Qed.

Theorem spec_prep_up_maximal start end_ size align s e :
  valid_layout size align -> (align | size) ->
  spec_prep_up start end_ size align = Some (s, e) ->
  (align | s) /\ (align | e) /\ start <= s /\ e <= end_ /\ size <= e - s /\
  (forall a b, (align | a) -> (align | b) -> start <= a -> b <= end_ -> s <= a /\ b <= e).
Proof.
  intros [Ha [Hs Hl]] Hmul H. pose proof (pow2_pos _ Ha) as Hap. unfold spec_prep_up in H.
  destruct ((start <=? end_) && (up_alignZ start align + size <=? end_)) eqn:E; [|discriminate].
  injection H as <- <-. apply andb_true_iff in E. destruct E as [_ E]. apply Z.leb_le in E.
  repeat split.
  - apply up_align_div; assumption.
  - apply down_align_div; assumption.
  - apply up_align_ge; assumption.
  - apply down_align_le; assumption.
  - assert (up_alignZ start align + size <= down_alignZ end_ align); [|lia].
    apply down_align_max; [assumption| |assumption].
    apply Z.divide_add_r; [apply up_align_div; assumption|assumption].
  - apply up_align_min; assumption.
  - apply down_align_max; assumption.
Qed.

Theorem spec_prep_down_maximal start end_ size align s e :
  valid_layout size align -> (align | size) ->
  spec_prep_down start end_ size align = Some (s, e) ->
  (align | s) /\ (align | e) /\ start <= s /\ e <= end_ /\ size <= e - s /\
  (forall a b, (align | a) -> (align | b) -> start <= a -> b <= end_ -> s <= a /\ b <= e).
Proof.
  intros [Ha [Hs Hl]] Hmul H. pose proof (pow2_pos _ Ha) as Hap. unfold spec_prep_down in H.
  destruct ((start <=? end_) && (start + size <=? down_alignZ end_ align)) eqn:E; [|discriminate].
  injection H as <- <-. apply andb_true_iff in E. destruct E as [_ E]. apply Z.leb_le in E.
  repeat split.
  - apply up_align_div; assumption.
  - apply down_align_div; assumption.
  - apply up_align_ge; assumption.
  - apply down_align_le; assumption.
  - assert (up_alignZ start align <= down_alignZ end_ align - size); [|lia].
    apply up_align_min; [assumption| |lia].
    apply Z.divide_sub_r; [apply down_align_div; assumption|assumption].
  - apply up_align_min; assumption.
  - apply down_align_max; assumption.
Qed.

Theorem spec_prep_dummy start end_ size align :
  0 <= size -> 0 < align -> dummy_range start end_ ->
  spec_prep_up start end_ size align = None /\ spec_prep_down start end_ size align = None.
Proof.
  intros Hs Ha (H0 & -> & _). unfold spec_prep_up, spec_prep_down.
  destruct (Z.leb_spec (end_ + 16) end_); [lia|]. split; reflexivity.
Qed.

Lemma spec_prep_up_some_iff start end_ m size align :
  spec_prep_up start end_ size align = None <-> spec_up start end_ m size align = None.
Proof.
  unfold spec_prep_up, spec_up.
  destruct ((start <=? end_) && (up_alignZ start align + size <=? end_)); split; congruence.
Qed.

(* a coarser alignment aligns further down *)
Lemma down_align_coarser x a A : 0 < a -> 0 < A -> (a | A) -> down_alignZ x A <= down_alignZ x a.
Proof.
  intros Ha HA Hd. apply down_align_max; [assumption| |apply down_align_le; assumption].
  eapply Z.divide_trans; [exact Hd|apply down_align_div; assumption].
Qed.

(* for sizes that are multiples of the alignment, prepare fits whenever allocate fits *)
Lemma spec_prep_down_fits start end_ m size align :
  valid_min_align m -> valid_layout size align -> (align | size) ->
  spec_down start end_ m size align <> None -> spec_prep_down start end_ size align <> None.
Proof.
  intros [Hm2 _] [Ha2 [Hs _]] Hmul H. pose proof (pow2_pos _ Ha2) as Hap.
  pose proof (pow2_max _ _ Ha2 Hm2) as HA2. pose proof (pow2_pos _ HA2) as HAp.
  unfold spec_down in H. unfold spec_prep_down.
  destruct (Z.leb_spec start end_); [|exfalso; apply H; reflexivity]. cbn [andb] in *.
  destruct (Z.leb_spec start (down_alignZ (end_ - size) (Z.max align m))) as [Hfit|];
    [|exfalso; apply H; reflexivity].
  assert (Hc : down_alignZ (end_ - size) (Z.max align m) <= down_alignZ (end_ - size) align).
  { apply down_align_coarser; [assumption|assumption|].
    apply pow2_divide; [assumption|assumption|lia]. }
  assert (He : down_alignZ (end_ - size) align = down_alignZ end_ align - size).
  { destruct Hmul as [k Hk]. replace (end_ - size) with (end_ + (- k) * align) by lia.
    unfold down_alignZ. rewrite Z.mod_add by lia. lia. }
  destruct (Z.leb_spec (start + size) (down_alignZ end_ align)); [discriminate|lia].
Qed.

Lemma spec_prep_up_fits start end_ m size align :
  spec_up start end_ m size align <> None -> spec_prep_up start end_ size align <> None.
Proof. intros H Hn. apply H. apply (spec_prep_up_some_iff start end_ m size align). exact Hn. Qed.

(* the specifications evaluated on two concrete ranges *)
Example spec_up_example :
  spec_up 4104 8192 8 13 32 = Some (4128, 4144) /\ spec_down 4096 8188 4 13 32 = Some 8160.
Proof. split; reflexivity. Qed.
