(* PartsProofs.v — dividing and merging owned slices partitions them exactly (C16). *)
From Coq Require Import List Arith Lia Permutation.
From BS Require Import Parts CollsProofs.
Import ListNotations.

Definition in_buf {A} (buf : list A) (p : part) : Prop := poff p + plen p <= length buf.
Definition pdisjoint (a b : part) : Prop := poff a + plen a <= poff b \/ poff b + plen b <= poff a.

Lemma view_length {A} (buf : list A) p : in_buf buf p -> length (view buf p) = plen p.
Proof. unfold view, in_buf. intros H. rewrite firstn_length, skipn_length. lia. Qed.

Lemma view_whole {A} (l : list A) : view l (whole l) = l.
Proof. unfold view, whole. cbn. apply firstn_all. Qed.

Lemma firstn_add {A} (l : list A) a b : firstn (a + b) l = firstn a l ++ firstn b (skipn a l).
Proof.
  revert l. induction a as [|a IH]; intros l; [reflexivity|].
  destruct l as [|x t]; [cbn; rewrite firstn_nil; reflexivity|]. cbn [plus firstn skipn app]. f_equal. apply IH.
Qed.

Theorem split_at_panics_iff p mid : split_at p mid = None <-> plen p < mid.
Proof. unfold split_at. destruct (Nat.ltb_spec (plen p) mid); split; intros; try lia; congruence. Qed.

Lemma split_at_Some p mid a b :
  split_at p mid = Some (a, b) <->
  mid <= plen p /\ a = mkPart (poff p) mid /\ b = mkPart (poff p + mid) (plen p - mid).
Proof.
  unfold split_at. destruct (Nat.ltb_spec (plen p) mid) as [Hlt|Hle]; split.
  - discriminate.
  - intros [H _]. lia.
  - intros H. injection H as <- <-. repeat split. exact Hle.
  - intros (_ & -> & ->). reflexivity.
Qed.

Theorem split_at_spec {A} (buf : list A) p mid a b :
  split_at p mid = Some (a, b) ->
  view buf a = firstn mid (view buf p) /\ view buf b = skipn mid (view buf p) /\
  view buf a ++ view buf b = view buf p /\
  plen a + plen b = plen p /\ poff a = poff p /\ poff b = poff a + plen a /\
  pdisjoint a b /\ (in_buf buf p -> in_buf buf a /\ in_buf buf b).
Proof.
  intros H. apply split_at_Some in H as (Hle & -> & ->).
  unfold view, in_buf, pdisjoint. cbn [poff plen].
  assert (E1 : firstn mid (firstn (plen p) (skipn (poff p) buf)) = firstn mid (skipn (poff p) buf)).
  { rewrite firstn_firstn. f_equal. lia. }
  assert (E2 : skipn mid (firstn (plen p) (skipn (poff p) buf)) = firstn (plen p - mid) (skipn (poff p + mid) buf)).
  { rewrite skipn_firstn_comm, skipn_skipn. reflexivity. }
  split; [symmetry; exact E1|]. split; [symmetry; exact E2|]. split.
  - rewrite <- E1, <- E2. apply firstn_skipn.
  - repeat split; lia.
Qed.

Theorem split_first_none_iff p : split_first p = None <-> plen p = 0.
Proof. unfold split_first. destruct (Nat.eqb_spec (plen p) 0); split; intros; try lia; congruence. Qed.
Theorem split_last_none_iff p : split_last p = None <-> plen p = 0.
Proof. unfold split_last. destruct (Nat.eqb_spec (plen p) 0); split; intros; try lia; congruence. Qed.

(* split_first and split_last are split_at at 1 and at plen p - 1 *)
Theorem split_first_spec {A} (buf : list A) p i r :
  split_first p = Some (i, r) ->
  view buf (mkPart i 1) ++ view buf r = view buf p /\ plen r + 1 = plen p /\
  pdisjoint (mkPart i 1) r /\ (in_buf buf p -> in_buf buf (mkPart i 1) /\ in_buf buf r).
Proof.
  unfold split_first. destruct (Nat.eqb_spec (plen p) 0) as [|Hne]; [discriminate|]. intros H. injection H as <- <-.
  edestruct (split_at_spec buf p 1) as (_ & _ & E & L & _ & _ & D & I).
  { apply split_at_Some. split; [lia|split; reflexivity]. }
  split; [exact E|]. split; [cbn [plen] in *; lia|]. split; [exact D|exact I].
Qed.

Theorem split_last_spec {A} (buf : list A) p i r :
  split_last p = Some (i, r) ->
  view buf r ++ view buf (mkPart i 1) = view buf p /\ plen r + 1 = plen p /\
  pdisjoint r (mkPart i 1) /\ (in_buf buf p -> in_buf buf (mkPart i 1) /\ in_buf buf r).
Proof.
  unfold split_last. destruct (Nat.eqb_spec (plen p) 0) as [|Hne]; [discriminate|]. intros H. injection H as <- <-.
  edestruct (split_at_spec buf p (plen p - 1)) as (_ & _ & E & L & _ & _ & D & I).
  { apply split_at_Some. split; [lia|split; reflexivity]. }
  replace (plen p - (plen p - 1)) with 1 in * by lia.
  split; [exact E|]. split; [cbn [plen]; lia|]. split; [exact D|]. intros Hin. destruct (I Hin). split; assumption.
Qed.

Theorem merge_accepts_iff a b : (exists m, merge a b = Some m) <-> poff a + plen a = poff b.
Proof.
  unfold merge. destruct (Nat.eqb_spec (poff a + plen a) (poff b)); split; intros H; try lia.
  - eexists; reflexivity.
  - destruct H; discriminate.
Qed.

Theorem merge_spec {A} (buf : list A) a b m :
  in_buf buf a -> merge a b = Some m ->
  view buf m = view buf a ++ view buf b /\ plen m = plen a + plen b /\ poff m = poff a.
Proof.
  unfold merge, in_buf. intros Ha. destruct (Nat.eqb_spec (poff a + plen a) (poff b)) as [E|]; [|discriminate].
  intros H. injection H as <-. unfold view. cbn [poff plen]. split; [|split; reflexivity].
  rewrite firstn_add, skipn_skipn, E. reflexivity.
Qed.

Theorem merge_split_at p mid a b : split_at p mid = Some (a, b) -> merge a b = Some p.
Proof.
  intros E. apply split_at_Some in E as (Hle & -> & ->).
  unfold merge. cbn [poff plen]. rewrite Nat.eqb_refl. destruct p as [o l]. cbn [poff plen] in *. f_equal. f_equal. lia.
Qed.
Theorem merge_split_at_swapped p mid a b :
  split_at p mid = Some (a, b) -> 0 < plen p -> merge b a = None.
Proof.
  intros E Hp. apply split_at_Some in E as (Hle & -> & ->).
  unfold merge. cbn [poff plen]. destruct (Nat.eqb_spec (poff p + mid + (plen p - mid)) (poff p)); [lia|reflexivity].
Qed.

Lemma span_spec {A} (p : A -> bool) l : forall a b, span p l = (a, b) ->
  l = a ++ b /\ Forall (fun x => p x = true) a /\ match b with [] => True | h :: _ => p h = false end.
Proof.
  induction l as [|x t IH]; intros a b H; cbn [span] in H.
  - injection H as <- <-. repeat split; constructor.
  - destruct (p x) eqn:Ex.
    + destruct (span p t) as [a' b'] eqn:Es. injection H as <- <-. destruct (IH a' b' eq_refl) as (E & F & G).
      split; [cbn; f_equal; exact E|]. split; [constructor; assumption|exact G].
    + injection H as <- <-. split; [reflexivity|]. split; [constructor|exact Ex].
Qed.

Lemma rspan_spec {A} (p : A -> bool) l : forall r3rev fs, rspan p l = (r3rev, fs) ->
  l = rev r3rev ++ fs /\ Forall (fun x => p x = false) fs /\ match r3rev with [] => True | t :: _ => p t = true end.
Proof.
  intros r3rev fs H. unfold rspan in H. destruct (span (fun x => negb (p x)) (rev l)) as [a b] eqn:Es. injection H as <- <-.
  destruct (span_spec _ _ _ _ Es) as (E & F & G).
  split; [rewrite <- (rev_involutive l), E, rev_app_distr; reflexivity|]. split.
  - apply Forall_rev. eapply Forall_impl; [|exact F]. cbn. intros x Hx. destruct (p x); [discriminate|reflexivity].
  - destruct b as [|t b']; [exact I|]. cbn in G. destruct (p t); [reflexivity|discriminate].
Qed.

Definition sorted_by {A} (p : A -> bool) (l : list A) (k : nat) : Prop :=
  Forall (fun x => p x = true) (firstn k l) /\ Forall (fun x => p x = false) (skipn k l) /\ k <= length l.

Lemma sorted_by_build {A} (p : A -> bool) (ts fs : list A) :
  Forall (fun x => p x = true) ts -> Forall (fun x => p x = false) fs -> sorted_by p (ts ++ fs) (length ts).
Proof.
  intros Ht Hf. unfold sorted_by. rewrite firstn_app_exact, skipn_app_exact, app_length by reflexivity.
  repeat split; try assumption; lia.
Qed.

Lemma sorted_by_inv {A} (p : A -> bool) (l : list A) k : sorted_by p l k ->
  exists ts fs, l = ts ++ fs /\ length ts = k /\ Forall (fun x => p x = true) ts /\ Forall (fun x => p x = false) fs.
Proof.
  intros (H1 & H2 & H3). exists (firstn k l), (skipn k l). split; [symmetry; apply firstn_skipn|].
  split; [rewrite firstn_length; lia|]. split; assumption.
Qed.

Theorem pgo_spec {A} (p : A -> bool) : forall fuel mid, length mid <= fuel ->
  let '(m, k) := pgo fuel p mid in Permutation mid m /\ sorted_by p m k.
Proof.
  induction fuel as [|fuel IH]; intros mid Hlen.
  - destruct mid; [|cbn in Hlen; lia]. cbn. split; [constructor|]. unfold sorted_by. cbn. repeat split; constructor.
  - cbn [pgo]. destruct (span p mid) as [ts r1] eqn:Es. destruct (span_spec p mid ts r1 Es) as (E & Ft & Gh).
    destruct r1 as [|h r2].
    + rewrite app_nil_r in E. subst mid. split; [apply Permutation_refl|].
      rewrite <- (app_nil_r ts) at 1. apply sorted_by_build; [exact Ft|constructor].
    + destruct (rspan p r2) as [r3rev fs] eqn:Er. destruct (rspan_spec p r2 r3rev fs Er) as (E2 & Ff & Gt).
      destruct r3rev as [|t r4rev].
      * cbn [rev app] in E2. subst r2 mid. split; [apply Permutation_refl|].
        apply sorted_by_build; [exact Ft|constructor; assumption].
      * cbn [rev] in E2.
        assert (Hl : length (rev r4rev) <= fuel).
        { subst mid r2. rewrite !app_length in Hlen. cbn [length] in Hlen. rewrite !app_length in Hlen. cbn [length] in Hlen. lia. }
        specialize (IH (rev r4rev) Hl). destruct (pgo fuel p (rev r4rev)) as [m k]. destruct IH as (Pm & Sm).
        destruct (sorted_by_inv p m k Sm) as (mt & mf & Em & Lk & Fmt & Fmf).
        split.
        -- (* h and t change places around what lies between them *)
           subst mid r2. apply Permutation_app_head.
           rewrite <- Pm, <- app_assoc. cbn [app]. rewrite <- !Permutation_middle. apply perm_swap.
        -- subst m. replace (ts ++ t :: (mt ++ mf) ++ h :: fs) with ((ts ++ t :: mt) ++ (mf ++ h :: fs)).
           2:{ rewrite <- !app_assoc. cbn [app]. rewrite <- ?app_assoc. reflexivity. }
           replace (length ts + 1 + k) with (length (ts ++ t :: mt)) by (rewrite app_length; cbn [length]; lia).
           apply sorted_by_build.
           ++ apply Forall_app. split; [exact Ft|constructor; assumption].
           ++ apply Forall_app. split; [exact Fmf|constructor; assumption].
Qed.

Lemma filter_length_perm {A} (p : A -> bool) (l q : list A) :
  Permutation l q -> length (filter p l) = length (filter p q).
Proof.
  intros Hq. induction Hq as [|x a b _ IH|x y a|a b d _ IH1 _ IH2]; cbn [filter]; try reflexivity.
  - destruct (p x); cbn [length]; rewrite ?IH; reflexivity.
  - destruct (p x), (p y); reflexivity.
  - rewrite IH1. exact IH2.
Qed.

Theorem partition_in_place_spec {A} (p : A -> bool) (l : list A) :
  let '(m, k) := partition_in_place p l in
  Permutation l m /\ sorted_by p m k /\ k = length (filter p l).
Proof.
  unfold partition_in_place. pose proof (pgo_spec p (length l) l (le_n _)) as H.
  destruct (pgo (length l) p l) as [m k]. destruct H as (P & S). split; [exact P|]. split; [exact S|].
  destruct (sorted_by_inv p m k S) as (ts & fs & E & L & Ft & Ff).
  rewrite (filter_length_perm p l m P), E, filter_app, app_length.
  assert (F1 : filter p ts = ts).
  { clear - Ft. induction Ft as [|x t Hx _ IH]; [reflexivity|]. cbn. rewrite Hx, IH. reflexivity. }
  assert (F2 : filter p fs = []).
  { clear - Ff. induction Ff as [|x t Hx _ IH]; [reflexivity|]. cbn. rewrite Hx. exact IH. }
  rewrite F1, F2. cbn. lia.
Qed.

(* partition = partition_in_place + split_at *)
Theorem op_partition_spec {A} (p : A -> bool) (l : list A) :
  let r := op_partition p l in
  pr_panic r = false /\ Permutation l (pr_first r ++ pr_second r) /\
  Forall (fun x => p x = true) (pr_first r) /\ Forall (fun x => p x = false) (pr_second r) /\
  length (pr_first r) = length (filter p l).
Proof.
  unfold op_partition. pose proof (partition_in_place_spec p l) as H.
  destruct (partition_in_place p l) as [m k]. destruct H as (P & (S1 & S2 & S3) & K).
  destruct (split_at (whole m) k) as [[a b]|] eqn:E.
  - destruct (split_at_spec m (whole m) k a b E) as (-> & -> & _). rewrite view_whole.
    cbn [pr_panic pr_first pr_second]. split; [reflexivity|]. split; [rewrite firstn_skipn; exact P|].
    split; [exact S1|]. split; [exact S2|]. rewrite firstn_length. lia.
  - apply split_at_panics_iff in E. cbn [whole plen] in E. lia.
Qed.

Theorem op_split_at_spec {A} (l : list A) mid :
  let r := op_split_at l mid in
  (pr_panic r = true <-> length l < mid) /\
  (pr_panic r = false -> pr_first r = firstn mid l /\ pr_second r = skipn mid l).
Proof.
  unfold op_split_at. destruct (split_at (whole l) mid) as [[a b]|] eqn:E.
  - destruct (split_at_spec l (whole l) mid a b E) as (E1 & E2 & _). rewrite view_whole in E1, E2.
    cbn [pr_panic pr_first pr_second]. split; [|intros _; split; assumption].
    split; [discriminate|]. intros H. apply (split_at_panics_iff (whole l)) in H. congruence.
  - cbn [pr_panic]. split; [|discriminate]. split; [|reflexivity]. intros _. apply (split_at_panics_iff (whole l) mid). exact E.
Qed.

Theorem op_split_first_spec {A} (l : list A) :
  match l with
  | [] => op_split_first l = mkPR [] [] false
  | x :: t => op_split_first l = mkPR t [x] false
  end.
Proof.
  destruct l as [|x t]; [reflexivity|]. unfold op_split_first, split_first, whole, view. cbn [plen poff length Nat.eqb].
  cbn. rewrite Nat.sub_0_r, firstn_all. reflexivity.
Qed.

Theorem op_split_last_spec {A} (l : list A) x :
  op_split_last (l ++ [x]) = mkPR l [x] false /\ op_split_last (@nil A) = mkPR [] [] false.
Proof.
  split; [|reflexivity]. unfold op_split_last, split_last, whole, view. cbn [plen poff].
  rewrite app_length. cbn [length]. destruct (Nat.eqb_spec (length l + 1) 0); [lia|].
  cbn [poff plen skipn plus]. replace (length l + 1 - 1) with (length l) by lia.
  rewrite firstn_app_exact, skipn_app_exact by reflexivity. reflexivity.
Qed.

Theorem op_merge_spec {A} (l : list A) i j x y :
  i <= j -> j <= length l -> x <= 2 -> y <= 2 ->
  0 < plen (three l i j x) -> 0 < plen (three l i j y) ->
  (pr_panic (op_merge l i j x y) = false <-> y = x + 1 \/ (x = 0 /\ y = 2 /\ i = j)).
Proof.
  intros Hij Hj Hx Hy P1 P2.
  transitivity (poff (three l i j x) + plen (three l i j x) = poff (three l i j y)).
  { unfold op_merge, merge. destruct (Nat.eqb_spec (poff (three l i j x) + plen (three l i j x)) (poff (three l i j y)));
      cbn [pr_panic]; split; congruence. }
  destruct x as [|[|[|x]]]; [| | |lia]; (destruct y as [|[|[|y]]]; [| | |lia]); cbn [three poff plen] in *; lia.
Qed.
