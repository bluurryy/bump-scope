(* SplitRefine.v — the window arithmetic of the CURRENT FixedBumpVec::split_off (cut out branch by branch by
   tools/splitsites.py, translated into gen/SplitSites.v, shape facts in gen/SplitFacts.v) is SplitCap.split_off_windows:
   in each of the four branches the part `self` keeps and the part that is returned have exactly the offset, length
   and capacity of the model's windows, `self` keeps the side the model says, and the rotation is the model's. *)
From Coq Require Import ZArith Lia.
From BS Require Import Word SplitCap.
From BS.gen Require SplitSites SplitFacts.
Local Open Scope Z_scope.

Local Notation Zn := Z.of_nat.

(* the cut-out expressions only subtract lengths: a checked subtraction of naturals that the bounds allow is the
   natural subtraction *)
Lemma sub_nat {R} (x y : nat) : (y <= x)%nat -> @sub R (Zn x) (Zn y) = Norm (Zn (x - y)).
Proof. intros H. rewrite sub_ok by lia. rewrite <- Nat2Z.inj_sub by exact H. reflexivity. Qed.

(* so a site that subtracts runs to the very term split_off_windows has in its place; the other conjuncts of the
   theorems below (shape facts, offsets, sites that subtract nothing) hold by computation *)
Ltac site :=
  lazymatch goal with |- ?l = _ => let f := sx_fn l in unfold f end; repeat (rewrite sub_nat by lia; cbn [bindc]); reflexivity.

Lemma windows_interior len cap a b : (0 < a)%nat -> (a < b)%nat -> (b < len)%nat ->
  split_off_windows len cap a b =
  let r := (b - a)%nat in let m := (len - r)%nat in
  if (a <? len - b)%nat then (mkVwin r m (cap - r), mkVwin 0 r r) else (mkVwin 0 m m, mkVwin m r (cap - m)).
Proof.
  intros H0 Hab Hb. unfold split_off_windows.
  destruct (Nat.eqb_spec b len); [lia|]. destruct (Nat.eqb_spec a 0); [lia|]. destruct (Nat.eqb_spec a b); [lia|].
  reflexivity.
Qed.

Theorem split_off_tail_refines (len cap a b : nat) :
  (a <= b)%nat -> b = len -> (len <= cap)%nat ->
  let '(keep, off) := split_off_windows len cap a b in
  SplitFacts.so_tail_self_keeps_lhs = true /\ SplitFacts.so_tail_rotation_ok = true /\
  woff keep = 0%nat /\ SplitSites.so_tail_lhs_len (Zn a) = Ok (Zn (wlen keep)) /\ SplitSites.so_tail_lhs_cap (Zn a) = Ok (Zn (wcap keep)) /\
  SplitSites.so_tail_rhs_off (Zn a) = Ok (Zn (woff off)) /\ SplitSites.so_tail_rhs_len (Zn a) (Zn len) = Ok (Zn (wlen off)) /\
  SplitSites.so_tail_rhs_cap (Zn a) (Zn cap) = Ok (Zn (wcap off)).
Proof.
  intros Hab Hb Hc. subst b. unfold split_off_windows. rewrite Nat.eqb_refl. cbn [woff wlen wcap].
  repeat apply conj; try reflexivity; site.
Qed.

Theorem split_off_front_refines (len cap b : nat) :
  (b < len)%nat -> (len <= cap)%nat ->
  let '(keep, off) := split_off_windows len cap 0 b in
  SplitFacts.so_front_self_keeps_lhs = false /\ SplitFacts.so_front_rotation_ok = true /\
  woff off = 0%nat /\ SplitSites.so_front_lhs_len (Zn b) = Ok (Zn (wlen off)) /\ SplitSites.so_front_lhs_cap (Zn b) = Ok (Zn (wcap off)) /\
  SplitSites.so_front_rhs_off (Zn b) = Ok (Zn (woff keep)) /\ SplitSites.so_front_rhs_len (Zn b) (Zn len) = Ok (Zn (wlen keep)) /\
  SplitSites.so_front_rhs_cap (Zn b) (Zn cap) = Ok (Zn (wcap keep)).
Proof.
  intros Hb Hc. unfold split_off_windows.
  assert (E : (b =? len)%nat = false) by (apply Nat.eqb_neq; lia). rewrite E. cbn [Nat.eqb woff wlen wcap].
  repeat apply conj; try reflexivity; site.
Qed.

(* head shorter than tail: the range is rotated to the front *)
Theorem split_off_headshort_refines (len cap a b : nat) :
  (0 < a)%nat -> (a < b)%nat -> (b < len)%nat -> (len <= cap)%nat -> (a < len - b)%nat ->
  let '(keep, off) := split_off_windows len cap a b in
  SplitFacts.so_headshort_self_keeps_lhs = false /\ SplitFacts.so_headshort_rotation_ok = true /\ SplitFacts.so_interior_defs_ok = true /\
  woff off = 0%nat /\ SplitSites.so_headshort_lhs_len (Zn a) (Zn b) = Ok (Zn (wlen off)) /\
  SplitSites.so_headshort_lhs_cap (Zn a) (Zn b) = Ok (Zn (wcap off)) /\
  SplitSites.so_headshort_rhs_off (Zn a) (Zn b) = Ok (Zn (woff keep)) /\
  SplitSites.so_headshort_rhs_len (Zn a) (Zn b) (Zn len) = Ok (Zn (wlen keep)) /\
  SplitSites.so_headshort_rhs_cap (Zn a) (Zn b) (Zn cap) = Ok (Zn (wcap keep)).
Proof.
  intros H0 Hab Hb Hc Hh. rewrite windows_interior by assumption.
  apply Nat.ltb_lt in Hh as ->. cbn [woff wlen wcap].
  repeat apply conj; try reflexivity; site.
Qed.

(* head at least as long as the tail: the range is rotated to the back *)
Theorem split_off_taillong_refines (len cap a b : nat) :
  (0 < a)%nat -> (a < b)%nat -> (b < len)%nat -> (len <= cap)%nat -> (len - b <= a)%nat ->
  let '(keep, off) := split_off_windows len cap a b in
  SplitFacts.so_taillong_self_keeps_lhs = true /\ SplitFacts.so_taillong_rotation_ok = true /\
  woff keep = 0%nat /\ SplitSites.so_taillong_lhs_len (Zn a) (Zn b) (Zn len) = Ok (Zn (wlen keep)) /\
  SplitSites.so_taillong_lhs_cap (Zn a) (Zn b) (Zn len) = Ok (Zn (wcap keep)) /\
  SplitSites.so_taillong_rhs_off (Zn a) (Zn b) (Zn len) = Ok (Zn (woff off)) /\
  SplitSites.so_taillong_rhs_len (Zn a) (Zn b) = Ok (Zn (wlen off)) /\
  SplitSites.so_taillong_rhs_cap (Zn a) (Zn b) (Zn len) (Zn cap) = Ok (Zn (wcap off)).
Proof.
  intros H0 Hab Hb Hc Hh. rewrite windows_interior by assumption.
  apply Nat.ltb_ge in Hh as ->. cbn [woff wlen wcap].
  repeat apply conj; try reflexivity; site.
Qed.
