(* AllocRefine.v — the position arithmetic of the CURRENT src/allocator_impl.rs (is_last,
   deallocate_assume_last, grow, shrink, shrink_unfit, align_fits) and of RawChunk::set_pos_addr_and_align
   — cut out expression by expression by tools/allocsites.py and translated into gen/AllocSites.v on
   every run — computes exactly the terms the hand-written arena model (Arena.v: is_last,
   dealloc_assume_last, raw_grow, raw_shrink, divides) computes in the same places, and none of the
   unchecked additions / subtractions can wrap for addresses inside a chunk (`Ok`).
   Each theorem names the model term on its right-hand side; the lemmas at the end restate the
   model's branches in exactly those terms, so that the correspondence "code expression = model
   expression" is visible without unfolding Arena.v. *)
From Coq Require Import ZArith Lia.
From BS Require Import Word BumpSpec ChunkSpec Arena LibRefine.
From BS.gen Require LibArith AllocSites.
Open Scope Z_scope.

(* the helper copies inside the unit are the translated helpers of lib.rs *)
Lemma helpers_same :
  AllocSites.up_align_usize_unchecked = LibArith.up_align_usize_unchecked /\
  AllocSites.down_align_usize = LibArith.down_align_usize /\
  AllocSites.bump_down = LibArith.bump_down /\
  AllocSites.align_pos = LibArith.align_pos.
Proof. repeat split; reflexivity. Qed.

Lemma site_up_align x a :
  pow2 a -> 0 <= x -> x + a - 1 < W -> AllocSites.up_align_usize_unchecked x a = Ok (up_alignZ x a).
Proof. apply lib_up_align_unchecked_ok. Qed.

Lemma site_bump_down addr size align :
  pow2 align -> align < W -> 0 <= addr < W -> 0 <= size ->
  AllocSites.bump_down addr size align = Ok (down_alignZ (Z.max (addr - size) 0) align).
Proof. apply lib_bump_down_refines. Qed.

Lemma site_align_pos upb m pos :
  valid_min_align m -> 0 <= pos -> pos + m - 1 < W -> AllocSites.align_pos upb m pos = Ok (align_posZ upb m pos).
Proof. apply align_pos_refines. Qed.

(* calls to those copies; [sx_site acalls; reflexivity] proves one conjunct [expression args = Ok term] by
   running the expression *)
Ltac acalls r :=
  lazymatch r with
  | AllocSites.up_align_usize_unchecked ?x ?a => rewrite (site_up_align x a) by sx_side
  | AllocSites.bump_down ?x ?s ?a => rewrite (site_bump_down x s a) by sx_side
  | AllocSites.align_pos ?u ?m ?p => rewrite (site_align_pos u m p) by sx_side
  end.

(* the alignment both downward paths bump to *)
Lemma max_align_ok nalign m :
  valid_min_align m -> pow2 nalign -> nalign < W -> pow2 (Z.max nalign m) /\ Z.max nalign m < W.
Proof.
  intros [Hpm Hle] Hna HnW. split; [apply pow2_max; assumption|].
  apply Z.max_lub_lt; [exact HnW | rewrite W_val; lia].
Qed.

Theorem is_last_refines ptr size pos :
  0 <= ptr -> 0 <= size -> ptr + size < W ->
  AllocSites.is_last_up ptr size pos = Ok (ptr + size =? pos) /\
  AllocSites.is_last_down ptr pos = Ok (ptr =? pos).
Proof.
  intros H1 H2 H3. split; sx_site acalls; reflexivity.
Qed.

Theorem dealloc_target_refines upb m ptr size :
  valid_min_align m -> 0 <= ptr -> 0 <= size -> ptr + size + m - 1 < W ->
  (AllocSites.dealloc_up_target ptr = Ok ptr /\ AllocSites.dealloc_down_target ptr size = Ok (ptr + size)) /\
  AllocSites.set_pos_and_align_addr upb m (if upb then ptr else ptr + size)
  = Ok (align_posZ upb m (if upb then ptr else ptr + size)).
Proof.
  intros Hm H1 H2 H3. assert (0 < m) by (destruct Hm as [Hp _]; apply pow2_pos; exact Hp).
  destruct upb; repeat split; sx_site acalls; reflexivity.
Qed.

Theorem grow_up_refines chunk_end ptr nsize m :
  valid_min_align m -> 0 <= ptr <= chunk_end -> 0 <= nsize -> ptr + nsize + m - 1 < W ->
  AllocSites.grow_up_remaining chunk_end ptr = Ok (chunk_end - ptr) /\
  AllocSites.grow_up_fits nsize (chunk_end - ptr) = Ok (nsize <=? chunk_end - ptr) /\
  AllocSites.grow_up_new_pos ptr nsize m = Ok (up_alignZ (ptr + nsize) m).
Proof.
  intros [Hp Hle] H1 H2 H3. pose proof (pow2_pos _ Hp). pose proof W_val.
  repeat split; sx_site acalls; reflexivity.
Qed.

Theorem grow_down_refines ptr osize nsize nalign m very_start :
  valid_min_align m -> pow2 nalign -> nalign < W -> 0 <= ptr < W -> 0 <= osize <= nsize ->
  let new_addr := down_alignZ (Z.max (ptr - (nsize - osize)) 0) (Z.max nalign m) in
  new_addr + nsize < W ->
  AllocSites.grow_down_additional nsize osize = Ok (nsize - osize) /\
  AllocSites.grow_down_new_addr ptr (nsize - osize) nalign m = Ok new_addr /\
  AllocSites.grow_down_fits new_addr very_start = Ok (very_start <=? new_addr) /\
  AllocSites.grow_down_new_addr_end new_addr nsize = Ok (new_addr + nsize) /\
  AllocSites.grow_down_nonoverlapping (new_addr + nsize) ptr = Ok (new_addr + nsize <? ptr).
Proof.
  intros Hm Hna HnW Hp Hs new_addr Hb. destruct (max_align_ok nalign m Hm Hna HnW) as [Hmx HmW].
  assert (0 <= new_addr).
  { unfold new_addr, down_alignZ. pose proof (pow2_pos _ Hmx) as Hpos.
    pose proof (Z.mod_le (Z.max (ptr - (nsize - osize)) 0) (Z.max nalign m) ltac:(lia) Hpos). lia. }
  repeat split; sx_site acalls; reflexivity.
Qed.

Theorem shrink_up_refines ptr nsize m :
  valid_min_align m -> 0 <= ptr -> 0 <= nsize -> ptr + nsize + m - 1 < W ->
  AllocSites.shrink_up_end ptr nsize = Ok (ptr + nsize) /\
  AllocSites.shrink_up_new_pos (ptr + nsize) m = Ok (up_alignZ (ptr + nsize) m).
Proof.
  intros [Hp Hle] H1 H2 H3. pose proof (pow2_pos _ Hp). pose proof W_val.
  split; sx_site acalls; reflexivity.
Qed.

Theorem shrink_down_refines ptr osize nsize nalign m :
  valid_min_align m -> pow2 nalign -> nalign < W -> 0 <= ptr -> 0 <= nsize <= osize -> ptr + osize < W ->
  let new_addr := down_alignZ (Z.max (ptr + osize - nsize) 0) (Z.max nalign m) in
  AllocSites.shrink_down_old_end ptr osize = Ok (ptr + osize) /\
  AllocSites.shrink_down_new_addr (ptr + osize) nsize nalign m = Ok new_addr /\
  AllocSites.shrink_down_copy_src_end ptr nsize = Ok (ptr + nsize) /\
  AllocSites.shrink_down_overlaps (ptr + nsize) new_addr = Ok (new_addr <? ptr + nsize).
Proof.
  intros Hm Hna HnW Hp Hs Hb new_addr. destruct (max_align_ok nalign m Hm Hna HnW) as [Hmx HmW].
  repeat split; sx_site acalls; reflexivity.
Qed.

(* shrink_unfit: the ends compared in the overlap tests (np <? ptr + nsize / ptr <? np + nsize) *)
Theorem unfit_ends_refine ptr np nsize :
  0 <= ptr -> 0 <= np -> 0 <= nsize -> ptr + nsize < W -> np + nsize < W ->
  AllocSites.unfit_up_old_end ptr nsize = Ok (ptr + nsize) /\ AllocSites.unfit_down_new_end np nsize = Ok (np + nsize).
Proof.
  intros. split; sx_site acalls; reflexivity.
Qed.

Theorem is_aligned_to_refines ptr a :
  pow2 a -> 0 <= ptr -> AllocSites.is_aligned_to ptr a = Ok (divides a ptr).
Proof.
  intros [k [Hk ->]] Hp. unfold AllocSites.is_aligned_to, divides.
  assert (0 < 2 ^ k) by (apply Z.pow_pos_nonneg; lia).
  rewrite sub_ok by lia. cbn [bindc run]. unfold and64.
  replace (2 ^ k - 1) with (Z.ones k) by (rewrite Z.ones_equiv; lia).
  rewrite Z.land_ones by exact Hk. reflexivity.
Qed.

Lemma model_is_last c s ptr size ch :
  cur_chunk s = Some ch -> is_last c s ptr size = if up c then ptr + size =? cpos ch else ptr =? cpos ch.
Proof. intros E. unfold is_last. rewrite E. reflexivity. Qed.

Lemma model_dealloc_target c s ptr size :
  deallocates c = true ->
  dealloc_assume_last c s ptr size = set_cur_pos s (align_posZ (up c) (malign s) (if up c then ptr else ptr + size)).
Proof. intros E. unfold dealloc_assume_last. rewrite E. cbn [negb]. destruct (up c); reflexivity. Qed.

Lemma model_grow_up_in_place c s ptr osize oalign nsize nalign r ch :
  up c = true -> is_last c s ptr osize = true -> divides nalign ptr = true -> cur_chunk s = Some ch ->
  (nsize <=? content_end c ch - ptr) = true ->
  raw_grow c s ptr osize oalign nsize nalign r = (set_cur_pos s (up_alignZ (ptr + nsize) (malign s)), inl (mkRO ptr nsize false)).
Proof. intros U L D E F. unfold raw_grow. rewrite U, L, D, E. cbn [andb]. rewrite F. reflexivity. Qed.

Lemma model_shrink_up_in_place c s ptr osize oalign nsize nalign r :
  up c = true -> divides nalign ptr = true -> shrinks c = true -> is_last c s ptr osize = true ->
  raw_shrink c s ptr osize oalign nsize nalign r = (set_cur_pos s (up_alignZ (ptr + nsize) (malign s)), inl (mkRO ptr nsize false)).
Proof. intros U D S L. unfold raw_shrink. rewrite D, S, L, U. reflexivity. Qed.

(* Arena.new_chunk_size composes calc_hint_from_capacity (C12), twice the previous chunk size, the
   minimum chunk size and calc_size_from_hint exactly as append_for / grow_size /
   ChunkSizeHint::{max, calc_size} do *)
Theorem grow_size_hint_refines ps :
  AllocSites.grow_size_hint ps = Ok (if W <=? 2 * ps then None else Some (2 * ps)).
Proof.
  unfold AllocSites.grow_size_hint, checked_mul. cbn [Word.run]. f_equal.
  replace (ps * 2) with (2 * ps) by ring.
  destruct (Z.ltb_spec (2 * ps) W); destruct (Z.leb_spec W (2 * ps)); try reflexivity; lia.
Qed.

Theorem hint_composition_refines req grown minimum :
  AllocSites.hint_max req grown = Ok (Z.max req grown) /\
  AllocSites.calc_size_hint (Z.max req grown) minimum = Ok (Z.max (Z.max req grown) minimum).
Proof.
  unfold AllocSites.calc_size_hint, AllocSites.hint_max. cbn [Word.run call bindc].
  split; f_equal.
  - destruct (Z.ltb_spec grown req); cbv iota; lia.
  - destruct (Z.ltb_spec minimum (Z.max req grown)); cbv iota; lia.
Qed.

Lemma model_new_chunk_size c ps size align :
  new_chunk_size c (Some ps) size align =
  (let req := spec_hint (up c) (hs c) (ha c) size align in
   if W <=? req then None else
   if W <=? 2 * ps then None else
   let hint := Z.max (Z.max req (2 * ps)) (min_chunk c) in
   if W <=? spec_size0 (hs c) (ha c) hint then None else
   let n := spec_size_from_hint (up c) (hs c) (ha c) hint in
   if IMAX - (ha c - 1) <? n then None else Some n).
Proof. reflexivity. Qed.

(* the typed twin: BumpScope's shrink_slice ("adapted from Allocator::shrink") computes, for a slice of
   old_len / new_len elements of size es and alignment ea, exactly the terms of the Allocator path (shrink_up_refines /
   shrink_down_refines with osize = old_len * es, nsize = new_len * es, nalign = ea) — so the typed fast path and the
   generic layout path agree (C17) and reclaim the same bytes (C13) *)
Theorem typed_shrink_refines ptr old_len new_len es ea m pos :
  valid_min_align m -> pow2 ea -> ea < W -> 0 <= ptr -> 0 <= es -> 0 <= new_len <= old_len ->
  ptr + old_len * es + m - 1 < W -> old_len * es < W ->
  let osize := old_len * es in let nsize := new_len * es in
  let new_addr := down_alignZ (Z.max (ptr + osize - nsize) 0) (Z.max ea m) in
  AllocSites.typed_shrink_old_size old_len es = Ok osize /\
  AllocSites.typed_shrink_new_size new_len es = Ok nsize /\
  AllocSites.typed_is_last_up ptr osize pos = Ok (ptr + osize =? pos) /\
  AllocSites.typed_is_last_down ptr pos = Ok (ptr =? pos) /\
  AllocSites.typed_shrink_up_end ptr nsize = Ok (ptr + nsize) /\
  AllocSites.typed_shrink_up_new_pos (ptr + nsize) m = Ok (up_alignZ (ptr + nsize) m) /\
  AllocSites.typed_shrink_down_old_end ptr osize = Ok (ptr + osize) /\
  AllocSites.typed_shrink_down_new_addr (ptr + osize) nsize ea m = Ok new_addr /\
  AllocSites.typed_shrink_down_new_end ptr nsize = Ok (ptr + nsize) /\
  AllocSites.typed_shrink_down_overlaps (ptr + nsize) new_addr = Ok (new_addr <? ptr + nsize).
Proof.
  intros Hm Hea HeW Hp Hes Hl Hb HoW osize nsize new_addr.
  destruct (max_align_ok ea m Hm Hea HeW) as [Hmx HmW]. destruct Hm as [Hpm Hle].
  pose proof (pow2_pos _ Hpm) as Hm0. pose proof W_val.
  assert (Hn : 0 <= nsize <= osize) by (unfold nsize, osize; split; [apply Z.mul_nonneg_nonneg; lia|apply Z.mul_le_mono_nonneg_r; lia]).
  repeat split; sx_site acalls; reflexivity.
Qed.

(* RawChunk::set_pos_addr_and_align_from is Arena.commit_pos (typed): re-align, in bump direction,
   exactly when the element alignment is below the minimum alignment *)
Theorem commit_pos_refines (c : cfg) m ea x :
  valid_min_align m -> 0 <= x -> x + m - 1 < W ->
  AllocSites.commit_pos_from (up c) m x ea = Ok (commit_pos c m ea false x).
Proof.
  intros Hm Hx Hb. unfold commit_pos. cbn [orb]. sx_site acalls; reflexivity.
Qed.
