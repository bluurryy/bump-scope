(* ArenaSplit.v — C01 / C16: split-off parts of a block count as separate live blocks, and the
   allocator tolerates blocks that are sub-ranges of an allocation.
   `Arena.split_block` replaces a live block by two adjacent parts (pure bookkeeping: chunks,
   positions and memory are untouched).  The arena invariant survives it - the parts are placed,
   aligned as quoted, disjoint from each other and from every other live block - and therefore
   every later operation on a part (deallocate, grow, shrink through any handle or wrapper) is
   covered by the step theorems: `step_inv` needs nothing but the invariant. *)
From Coq Require Import ZArith List Lia.
From BS Require Import Arena ArenaInv ArenaInv2.
Import ListNotations.
Open Scope Z_scope.

Lemma placed_sub c s p sz p' sz' :
  placed c s p sz -> p <= p' -> p' + sz' <= p + sz -> placed c s p' sz'.
Proof.
  intros (k & ch & Hk & [I1 I2] & Hcur) H1 H2. exists k, ch. split; [exact Hk|]. split; [split; lia|].
  destruct (cur s) as [i| |]; try contradiction. destruct Hcur as [Hle Hside]. split; [exact Hle|].
  intros E Hpos. specialize (Hside E). unfold alloc_side in Hside.
  assert (Hp : 0 < sz) by lia. specialize (Hside Hp). destruct (up c); lia.
Qed.

Theorem split_keeps_inv c s b blk mid ralign :
  inv c s -> find_block s b = Some blk -> 0 <= mid <= bsize blk -> (ralign | bptr blk + mid) ->
  inv c (split_block s b mid ralign).
Proof.
  intros Hinv Hf Hmid Hal. unfold split_block. rewrite Hf.
  destruct (remove_block_facts c s b blk Hinv Hf) as (Hinv1 & B1 & B2 & B3 & B4).
  set (s1 := remove_block s b) in *.
  set (left := mkBlock (nextid s1) (bptr blk) mid (balign blk) (born blk)).
  set (right := mkBlock (S (nextid s1)) (bptr blk + mid) (bsize blk - mid) ralign (born blk)).
  assert (HL : inv c (bump_id (upd_live s1 (left :: live s1)))).
  { apply inv_push_block.
    - exact Hinv1.
    - cbn [bsize left]. lia.
    - cbn [balign bptr left]. exact B2.
    - cbn [bsize bptr left]. apply (placed_sub c s1 (bptr blk) (bsize blk)); [exact B3|lia|lia].
    - intros b0 Hb0. cbn [bsize bptr left]. pose proof (B4 b0 Hb0) as D. unfold disjoint_rng in *. lia.
    - reflexivity. }
  set (s2 := bump_id (upd_live s1 (left :: live s1))) in *.
  assert (E : bump_id (bump_id (upd_live s1 (right :: left :: live s1))) = bump_id (upd_live s2 (right :: live s2))) by reflexivity.
  rewrite E. apply inv_push_block.
  - exact HL.
  - cbn [bsize right]. lia.
  - cbn [balign bptr right]. exact Hal.
  - cbn [bsize bptr right]. apply (placed_sub c s1 (bptr blk) (bsize blk)); [exact B3|lia|lia].
  - intros b0 Hb0. cbn [bsize bptr right]. cbn [live s2 bump_id upd_live] in Hb0. destruct Hb0 as [<-|Hb0].
    + cbn [bptr bsize left]. unfold disjoint_rng. lia.
    + pose proof (B4 b0 Hb0) as D. unfold disjoint_rng in *. lia.
  - reflexivity.
Qed.

Theorem split_is_bookkeeping s b mid ralign :
  chunks (split_block s b mid ralign) = chunks s /\ cur (split_block s b mid ralign) = cur s /\
  (forall a, mem (split_block s b mid ralign) a = mem s a) /\ depth (split_block s b mid ralign) = depth s /\
  ledger (split_block s b mid ralign) = ledger s.
Proof. unfold split_block. destruct (find_block s b); repeat split. Qed.

Theorem split_parts s b blk mid ralign :
  find_block s b = Some blk ->
  exists l r, live (split_block s b mid ralign) = r :: l :: live (remove_block s b) /\
    bptr l = bptr blk /\ bsize l = mid /\ balign l = balign blk /\
    bptr r = bptr blk + mid /\ bsize r = bsize blk - mid /\ balign r = ralign /\
    bptr l + bsize l = bptr r /\ bsize l + bsize r = bsize blk /\
    born l = born blk /\ born r = born blk /\ bid l = nextid s /\ bid r = S (nextid s).
Proof.
  intros Hf. unfold split_block. rewrite Hf. eexists. eexists. split; [reflexivity|].
  cbn [bptr bsize balign born bid nextid remove_block upd_live]. repeat split; lia.
Qed.

Corollary step_after_split_keeps_inv c s b blk mid ralign o r :
  cfg_ok c -> inv c s -> find_block s b = Some blk -> 0 <= mid <= bsize blk -> (ralign | bptr blk + mid) ->
  op_ok2 c (split_block s b mid ralign) o -> op_resp_ok2 c (split_block s b mid ralign) o r ->
  inv c (fst (step c (split_block s b mid ralign) o r)).
Proof.
  intros Hc Hinv Hf Hmid Hal Hok Hr. apply step_inv; try assumption. apply (split_keeps_inv c s b blk); assumption.
Qed.

Theorem split_is_last c s ptr size mid :
  (up c = true -> is_last c s (ptr + mid) (size - mid) = is_last c s ptr size) /\
  (up c = false -> is_last c s ptr mid = is_last c s ptr size).
Proof.
  unfold is_last. split; intros Hu; rewrite Hu; destruct (cur_chunk s) as [ch|]; try reflexivity.
  replace (ptr + mid + (size - mid)) with (ptr + size) by lia. reflexivity.
Qed.

Theorem split_other_part_not_last c s ptr size mid ch :
  cur_chunk s = Some ch -> 0 < mid < size ->
  (up c = true -> is_last c s ptr mid = true -> is_last c s ptr size = false) /\
  (up c = false -> is_last c s (ptr + mid) (size - mid) = true -> is_last c s ptr size = false).
Proof.
  intros Hc Hm. unfold is_last. rewrite Hc. split; intros Hu; rewrite Hu; intros H; apply Z.eqb_eq in H; apply Z.eqb_neq; lia.
Qed.

Inductive xop := XOp (o : op) (r : resp) | XSplit (b : nat) (mid ralign : Z).
Definition xstep (c : cfg) (s : arena) (x : xop) : arena :=
  match x with XOp o r => fst (step c s o r) | XSplit b mid ralign => split_block s b mid ralign end.
Definition xok (c : cfg) (s : arena) (x : xop) : Prop :=
  match x with
  | XOp o r => op_ok2 c s o /\ op_resp_ok2 c s o r
  | XSplit b mid ralign => forall blk, find_block s b = Some blk -> 0 <= mid <= bsize blk /\ (ralign | bptr blk + mid)
  end.
Fixpoint xrun_ok (c : cfg) (s : arena) (xs : list xop) : Prop :=
  match xs with [] => True | x :: r => xok c s x /\ xrun_ok c (xstep c s x) r end.

Theorem xrun_inv c : forall xs s, cfg_ok c -> inv c s -> xrun_ok c s xs -> inv c (fold_left (xstep c) xs s).
Proof.
  induction xs as [|x xs IH]; intros s Hc Hinv Hok; cbn [fold_left]; [exact Hinv|].
  destruct Hok as [Hx Hrest]. apply IH; [exact Hc| |exact Hrest].
  destruct x as [o r|b mid ralign]; cbn [xstep xok] in *.
  - destruct Hx as [H1 H2]. apply step_inv; assumption.
  - destruct (find_block s b) as [blk|] eqn:Hf.
    + destruct (Hx blk eq_refl) as [Hm Ha]. apply (split_keeps_inv c s b blk); assumption.
    + unfold split_block. rewrite Hf. exact Hinv.
Qed.
