(* ArenaMem2.v — C02 for reallocation: what grow / shrink copy and which bytes they may change.
   Every branch of raw_grow / raw_shrink / WithoutShrink::shrink is one memmove of a prefix of the
   old block to the new address (or nothing); everything outside the destination keeps its bytes. *)
From Coq Require Import ZArith List Bool Lia.
From BS Require Import BumpSpec Arena ArenaInv ArenaMem.
Import ListNotations.
Open Scope Z_scope.

Definition moved (m m' : memory) (src dst len : Z) : Prop :=
  forall a, m' a = if (dst <=? a) && (a <? dst + len) then m (src + (a - dst)) else m a.

Lemma moved_copy m src dst len : moved m (mem_copy m src dst len) src dst len.
Proof. intros a. reflexivity. Qed.

Lemma moved_same m p len : moved m m p p len.
Proof. intros a. destruct ((p <=? a) && (a <? p + len)); [f_equal; lia|reflexivity]. Qed.

Lemma moved_ext m m0 m' src dst len : (forall a, m0 a = m a) -> moved m0 m' src dst len -> moved m m' src dst len.
Proof. intros E H a. rewrite (H a). destruct ((dst <=? a) && (a <? dst + len)); apply E. Qed.

Lemma moved_outside m m' src dst len a : moved m m' src dst len -> ~ (dst <= a < dst + len) -> m' a = m a.
Proof. intros H Hn. rewrite (H a). pose proof (range_test dst len a) as T. destruct (_ && _); [contradiction|reflexivity]. Qed.

Lemma moved_inside m m' src dst len k : moved m m' src dst len -> 0 <= k < len -> m' (dst + k) = m (src + k).
Proof.
  intros H Hk. rewrite (H (dst + k)). pose proof (range_test dst len (dst + k)) as T.
  destruct (_ && _); [f_equal; lia|lia].
Qed.

Lemma realloc_case_mem (P : Z -> Z -> Prop) (K : Z -> Prop) c s ptr len nsize nalign r x :
  realloc_case P K c s ptr len nsize nalign r x ->
  match snd x with
  | inl ro => (ro_size ro = nsize \/ K (ro_size ro)) /\ moved (mem s) (mem (fst x)) ptr (ro_ptr ro) len
  | inr _ => mem (fst x) = mem s
  end.
Proof.
  intros [sz _ Hk|p q m ub _ Hm|y Hy]; cbn [fst snd ro_size ro_ptr mem upd_mem].
  - split; [right; exact Hk|apply moved_same].
  - split; [left; reflexivity|]. destruct Hm as [[-> ->]| ->]; [apply moved_same|apply moved_copy].
  - assert (Em : mem (fst y) = mem s) by (destruct Hy as [-> | ->]; [apply raw_alloc_frame|apply raw_alloc_slow_frame]).
    destruct y as [t1 [np|e]]; cbn [fst snd copy_block mem upd_mem ro_size ro_ptr] in *; [|exact Em].
    split; [left; reflexivity|]. rewrite Em. apply moved_copy.
Qed.

Lemma realloc_case_live (P : Z -> Z -> Prop) K c s ptr len nsize nalign r x :
  realloc_case P K c s ptr len nsize nalign r x -> live (fst x) = live s.
Proof.
  apply (realloc_case_state P K c s ptr len nsize nalign r x (fun t => live t = live s));
    [auto|reflexivity|intros; apply set_cur_pos_frame|apply raw_alloc_frame|apply raw_alloc_slow_frame].
Qed.

Theorem grow_contents_and_frame c s0 h ws b nsize nalign zeroed r blk :
  find_block (tick s0) b = Some blk -> bsize blk <= nsize -> 0 <= bsize blk ->
  let '(s', out) := step c s0 (OGrow h ws b nsize nalign zeroed) r in
  match o_res out with
  | RBlock id p sz =>
    sz = nsize /\
    (forall k, 0 <= k < bsize blk -> mem s' (p + k) = mem s0 (bptr blk + k)) /\
    (zeroed = true -> forall a, p + bsize blk <= a < p + nsize -> mem s' a = 0) /\
    (forall a, ~ (p <= a < p + nsize) -> mem s' a = mem s0 a)
  | _ => forall a, mem s' a = mem s0 a
  end.
Proof.
  intros Hf Hle H0. cbn [step]. set (s := tick s0) in *. rewrite Hf.
  destruct (negb (is_top s h)); [cbn; intros a; reflexivity|].
  pose proof (realloc_case_mem _ _ _ _ _ _ _ _ _ _ (raw_grow_case c s (bptr blk) (bsize blk) (balign blk) nsize nalign r)) as Hres.
  destruct (raw_grow c s (bptr blk) (bsize blk) (balign blk) nsize nalign r) as [s1 [ro|e]]; cbn [fst snd] in Hres.
  - destruct Hres as [[Esz|[]] Hmv]. change (mem s) with (mem s0) in Hmv.
    unfold add_block. cbn [o_res snd fst mem bump_id upd_live remove_block].
    split; [exact Esz|]. split; [|split].
    + intros k Hk. destruct zeroed; cbn [mem zero_fill upd_mem]; [rewrite mem_fill_outside by lia|];
        apply (moved_inside _ _ _ _ _ _ Hmv Hk).
    + intros -> a Ha. cbn [mem zero_fill upd_mem]. rewrite mem_fill_inside by lia. reflexivity.
    + intros a Ha. destruct zeroed; cbn [mem zero_fill upd_mem]; [rewrite mem_fill_outside by lia|];
        apply (moved_outside _ _ _ _ _ _ Hmv); lia.
  - cbn [o_res snd fst mem upd_mem]. intros a. rewrite Hres. reflexivity.
Qed.

Theorem shrink_contents_and_frame c s0 h ws b nsize nalign r blk :
  fix_without_shrink c = true ->
  find_block (tick s0) b = Some blk -> 0 <= nsize <= bsize blk ->
  let '(s', out) := step c s0 (OShrink h ws b nsize nalign) r in
  match o_res out with
  | RBlock id p sz =>
    nsize <= sz /\
    (forall k, 0 <= k < nsize -> mem s' (p + k) = mem s0 (bptr blk + k)) /\
    (forall a, ~ (p <= a < p + nsize) -> mem s' a = mem s0 a)
  | _ => forall a, mem s' a = mem s0 a
  end.
Proof.
  intros Hfix Hf Hle. cbn [step]. set (s := tick s0) in *. rewrite Hf.
  destruct (negb (is_top s h) && negb (has_wrapper WShrink ws && divides nalign (bptr blk))).
  - destruct (divides nalign (bptr blk)); [|cbn; intros a; reflexivity].
    unfold add_block. cbn [o_res snd fst mem bump_id upd_live remove_block].
    split; [lia|]. split; intros; reflexivity.
  - set (go := if has_wrapper WShrink ws then ws_shrink else raw_shrink).
    assert (Hcase : exists (P : Z -> Z -> Prop) (K : Z -> Prop), (forall sz, K sz -> nsize <= sz) /\
              realloc_case P K c s (bptr blk) nsize nsize nalign r (go c s (bptr blk) (bsize blk) (balign blk) nsize nalign r)).
    { unfold go. destruct (has_wrapper WShrink ws); do 2 eexists.
      - split; [|pose proof (ws_shrink_case c s (bptr blk) (bsize blk) (balign blk) nsize nalign r) as H; rewrite Hfix in H; exact H].
        cbv beta. intros sz ->. lia.
      - split; [|apply raw_shrink_case]. cbv beta. intros sz ->. lia. }
    destruct Hcase as (P & K & HK & Hres). apply realloc_case_mem in Hres.
    destruct (go c s (bptr blk) (bsize blk) (balign blk) nsize nalign r) as [s1 [ro|e]]; cbn [fst snd] in Hres.
    + destruct Hres as [Hsz Hmv]. change (mem s) with (mem s0) in Hmv.
      assert (Hsz' : nsize <= ro_size ro) by (destruct Hsz as [->|Hk]; [lia|exact (HK _ Hk)]).
      unfold add_block. cbn [o_res snd fst mem bump_id upd_live remove_block upd_mem].
      split; [exact Hsz'|]. split.
      * intros k Hk. apply (moved_inside _ _ _ _ _ _ Hmv Hk).
      * intros a Ha. apply (moved_outside _ _ _ _ _ _ Hmv Ha).
    + cbn [o_res snd fst mem upd_mem]. intros a. rewrite Hres. reflexivity.
Qed.

Lemma readded_block_frame c s b p sz al b' n (m' m0 : memory) a :
  inv c (fst (add_block (remove_block s b) p sz al)) -> In b' (live s) -> bid b' <> b -> n <= sz ->
  (forall x, ~ (p <= x < p + n) -> m' x = m0 x) -> bptr b' <= a < bptr b' + bsize b' -> m' a = m0 a.
Proof.
  intros (_ & _ & Hd & _) Hin Hne Hn Hframe Ha. cbn [add_block fst live bump_id upd_live remove_block] in Hd.
  inversion Hd as [|x l Hx _]; subst. rewrite Forall_forall in Hx.
  assert (Hdj : disjoint2 (mkBlock (nextid s) p sz al (epoch s)) b').
  { apply Hx. apply filter_In. split; [exact Hin|]. apply Bool.negb_true_iff, Nat.eqb_neq. exact Hne. }
  apply Hframe. unfold disjoint2, disjoint_rng in Hdj. cbn [bptr bsize] in Hdj. lia.
Qed.

Theorem grow_keeps_other_blocks c s0 h ws b nsize nalign zeroed r blk b' :
  cfg_ok c -> inv c s0 -> valid_layout nsize nalign -> resp_ok c s0 nsize nalign r ->
  find_block (tick s0) b = Some blk -> bsize blk <= nsize ->
  In b' (live s0) -> bid b' <> b ->
  forall a, bptr b' <= a < bptr b' + bsize b' ->
  mem (fst (step c s0 (OGrow h ws b nsize nalign zeroed) r)) a = mem s0 a.
Proof.
  intros Hc Hinv Hl Hr Hf Hle Hin Hne a Ha.
  assert (Hinv' : inv c (fst (step c s0 (OGrow h ws b nsize nalign zeroed) r))).
  { apply step_inv_grow; assumption. }
  pose proof (proj1 (inv_live_block c s0 blk Hinv (proj1 (find_block_spec _ _ _ Hf)))) as H0.
  pose proof (grow_contents_and_frame c s0 h ws b nsize nalign zeroed r blk Hf Hle H0) as Hcf.
  revert Hinv' Hcf. cbn [step]. set (s := tick s0) in *. rewrite Hf.
  destruct (negb (is_top s h)); [cbn; intros _ _; reflexivity|].
  pose proof (realloc_case_live _ _ _ _ _ _ _ _ _ _ (raw_grow_case c s (bptr blk) (bsize blk) (balign blk) nsize nalign r)) as Hlv.
  destruct (raw_grow c s (bptr blk) (bsize blk) (balign blk) nsize nalign r) as [s1 [ro|e]]; cbn [fst] in Hlv.
  - set (s2 := if zeroed then zero_fill s1 (ro_ptr ro + bsize blk) (nsize - bsize blk) else s1).
    assert (Hin2 : In b' (live s2)) by (unfold s2; destruct zeroed; cbn [live zero_fill upd_mem]; rewrite Hlv; exact Hin).
    unfold add_block at 2. cbn [o_res snd]. intros Hinv' (Esz & _ & _ & Hframe).
    apply (readded_block_frame c s2 b _ _ _ b' nsize _ _ a Hinv' Hin2 Hne); [lia|exact Hframe|exact Ha].
  - cbn [o_res snd fst]. intros _ Hsame. apply Hsame.
Qed.

Theorem shrink_keeps_other_blocks c s0 h ws b nsize nalign r blk b' :
  cfg_ok c -> fix_without_shrink c = true -> inv c s0 -> valid_layout nsize nalign -> resp_ok c s0 nsize nalign r ->
  find_block (tick s0) b = Some blk -> 0 <= nsize <= bsize blk ->
  In b' (live s0) -> bid b' <> b ->
  forall a, bptr b' <= a < bptr b' + bsize b' ->
  mem (fst (step c s0 (OShrink h ws b nsize nalign) r)) a = mem s0 a.
Proof.
  intros Hc Hfix Hinv Hl Hr Hf Hle Hin Hne a Ha.
  assert (Hinv' : inv c (fst (step c s0 (OShrink h ws b nsize nalign) r))).
  { apply step_inv_shrink; try assumption. intros blk0 Hf0.
    assert (E : find_block (tick s0) b = find_block s0 b) by reflexivity. rewrite E in Hf. rewrite Hf in Hf0. injection Hf0 as <-. lia. }
  pose proof (shrink_contents_and_frame c s0 h ws b nsize nalign r blk Hfix Hf Hle) as Hcf.
  revert Hinv' Hcf. cbn [step]. set (s := tick s0) in *. rewrite Hf.
  destruct (negb (is_top s h) && negb (has_wrapper WShrink ws && divides nalign (bptr blk))).
  - destruct (divides nalign (bptr blk)); intros _ _; reflexivity.
  - set (go := if has_wrapper WShrink ws then ws_shrink else raw_shrink).
    assert (Hlv : live (fst (go c s (bptr blk) (bsize blk) (balign blk) nsize nalign r)) = live s).
    { unfold go. destruct (has_wrapper WShrink ws); eapply realloc_case_live; [apply ws_shrink_case|apply raw_shrink_case]. }
    destruct (go c s (bptr blk) (bsize blk) (balign blk) nsize nalign r) as [s1 [ro|e]]; cbn [fst] in Hlv.
    + unfold add_block at 2. cbn [o_res snd]. intros Hinv' (Hsz & _ & Hframe).
      assert (Hin1 : In b' (live s1)) by (rewrite Hlv; exact Hin).
      exact (readded_block_frame c s1 b _ _ _ b' nsize _ _ a Hinv' Hin1 Hne Hsz Hframe Ha).
    + cbn [o_res snd fst]. intros _ Hsame. apply Hsame.
Qed.
