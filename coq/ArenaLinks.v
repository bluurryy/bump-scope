(* ArenaLinks.v — walking the chunk list while chunks are being given back (C05: "released exactly once … never
   read or written afterwards"; C03 / C10: the walks of reset_to_start and reset).

   The arena model keeps the chunks in a list; the code keeps them as a doubly linked list whose links live in
   the chunk headers, i.e. inside the very blocks that are released.  What matters is the ORDER of reading a
   link and releasing the chunk that holds it.  Model: chunks are numbered by their position 0 … n-1 in the
   list (prev k = k-1, next k = k+1), a header can be read only while its chunk has not been released
   (otherwise: use after free), and releasing a chunk twice is an error as well.  The walks are the loops of
   raw_bump.rs, statement by statement (their shape is checked against the source by tools/allocsites.py):

     for_each_prev / for_each_next:  iter = chunk.prev()/next();  f(chunk)          (link first, then release)
     Drop (manually_drop):           for_each_prev(release); for_each_next(release); release(self)
     reset:                          for_each_prev(release); while let Some(next) = chunk.next() { release(chunk); chunk = next }
     reset_to_start:                 while let Some(prev) = chunk.prev() { chunk = prev } *)
From Coq Require Import List Arith Lia Bool Permutation.
Import ListNotations.

Inductive wres (A : Type) : Type := WOk (a : A) | WUaf.
Arguments WOk {A} a.
Arguments WUaf {A}.

Record hstore := mkHS { hn : nat; hreleased : list nat }.

Definition is_rel (st : hstore) (k : nat) : bool := existsb (Nat.eqb k) (hreleased st).

Lemma is_rel_spec st k : is_rel st k = true <-> In k (hreleased st).
Proof.
  unfold is_rel. rewrite existsb_exists. split.
  - intros (x & Hin & E). apply Nat.eqb_eq in E. subst. exact Hin.
  - intros Hin. exists k. split; [exact Hin|apply Nat.eqb_refl].
Qed.

Lemma is_rel_false st k : is_rel st k = false <-> ~ In k (hreleased st).
Proof. rewrite <- is_rel_spec. symmetry. apply not_true_iff_false. Qed.

Definition read_next (st : hstore) (k : nat) : wres (option nat) :=
  if is_rel st k then WUaf else WOk (if S k <? hn st then Some (S k) else None).
Definition read_prev (st : hstore) (k : nat) : wres (option nat) :=
  if is_rel st k then WUaf else WOk (match k with 0 => None | S j => Some j end).
(* chunk.deallocate(): reads the header (allocator, size), then hands the block back *)
Definition release (st : hstore) (k : nat) : wres hstore :=
  if is_rel st k then WUaf else WOk (mkHS (hn st) (k :: hreleased st)).

Definition bindw {A B} (m : wres A) (f : A -> wres B) : wres B := match m with WOk a => f a | WUaf => WUaf end.

(* for_each_prev(|c| c.deallocate()) — `link_first` = the order of the code; false = the seeded slip *)
Fixpoint fe_prev (link_first : bool) (fuel : nat) (st : hstore) (iter : option nat) : wres hstore :=
  match iter, fuel with
  | None, _ => WOk st
  | Some _, O => WOk st
  | Some j, S f =>
    if link_first then bindw (read_prev st j) (fun p => bindw (release st j) (fun st1 => fe_prev link_first f st1 p))
    else bindw (release st j) (fun st1 => bindw (read_prev st1 j) (fun p => fe_prev link_first f st1 p))
  end.
Fixpoint fe_next (link_first : bool) (fuel : nat) (st : hstore) (iter : option nat) : wres hstore :=
  match iter, fuel with
  | None, _ => WOk st
  | Some _, O => WOk st
  | Some j, S f =>
    if link_first then bindw (read_next st j) (fun p => bindw (release st j) (fun st1 => fe_next link_first f st1 p))
    else bindw (release st j) (fun st1 => bindw (read_next st1 j) (fun p => fe_next link_first f st1 p))
  end.

(* Drop for Bump: RawBump::manually_drop with `i` the current chunk *)
Definition run_drop (link_first : bool) (st : hstore) (i : nat) : wres hstore :=
  bindw (read_prev st i) (fun p => bindw (fe_prev link_first (hn st) st p) (fun st1 =>
  bindw (read_next st1 i) (fun nx => bindw (fe_next link_first (hn st) st1 nx) (fun st2 => release st2 i)))).

(* the forward loop of reset: while let Some(next) = chunk.next() { chunk.deallocate(); chunk = next } *)
Fixpoint reset_fwd (fuel : nat) (st : hstore) (k : nat) : wres (hstore * nat) :=
  match fuel with
  | O => WOk (st, k)
  | S f => bindw (read_next st k) (fun nx =>
           match nx with
           | None => WOk (st, k)
           | Some k' => bindw (release st k) (fun st1 => reset_fwd f st1 k')
           end)
  end.
Definition run_reset (st : hstore) (i : nat) : wres (hstore * nat) :=
  bindw (read_prev st i) (fun p => bindw (fe_prev true (hn st) st p) (fun st1 => reset_fwd (hn st) st1 i)).

(* reset_to_start: `whole` = while let (the code); false = if let (one step, the seeded slip) *)
Fixpoint walk_to_start (fuel : nat) (st : hstore) (k : nat) : wres nat :=
  match fuel with
  | O => WOk k
  | S f => bindw (read_prev st k) (fun p => match p with None => WOk k | Some j => walk_to_start f st j end)
  end.
Definition run_reset_to_start (whole : bool) (st : hstore) (i : nat) : wres nat :=
  if whole then walk_to_start (hn st) st i else walk_to_start 1 st i.

Definition fresh (n : nat) : hstore := mkHS n [].

Lemma fe_prev_none lf fuel st : fe_prev lf fuel st None = WOk st. Proof. destruct fuel; reflexivity. Qed.
Lemma fe_next_none lf fuel st : fe_next lf fuel st None = WOk st. Proof. destruct fuel; reflexivity. Qed.

(* each lemma gives the store a walk ends in: the chunks in the order of their release (latest first) in
   front of what had been released before *)
Lemma visit n l j : ~ In j l -> is_rel (mkHS n l) j = false.
Proof. exact (proj2 (is_rel_false (mkHS n l) j)). Qed.

(* `match i with …` is what chunk.prev() returned *)
Lemma fe_prev_ok fuel : forall n l i,
  i <= fuel -> (forall k, k < i -> ~ In k l) ->
  fe_prev true fuel (mkHS n l) (match i with 0 => None | S j => Some j end) = WOk (mkHS n (seq 0 i ++ l)).
Proof.
  induction fuel as [|f IH]; intros n l [|j] Hf Hfree; try lia; try reflexivity.
  cbn [fe_prev]. unfold read_prev, release. rewrite visit by (apply Hfree; lia). cbn [bindw hn hreleased].
  rewrite IH; [|lia|intros k Hk [H|H]; [lia|exact (Hfree k ltac:(lia) H)]].
  rewrite seq_S, <- app_assoc. reflexivity.
Qed.

(* `if j <? n …` is what chunk.next() returned *)
Lemma fe_next_ok fuel : forall n l j,
  n - j <= fuel -> (forall k, j <= k < n -> ~ In k l) ->
  fe_next true fuel (mkHS n l) (if j <? n then Some j else None) = WOk (mkHS n (rev (seq j (n - j)) ++ l)).
Proof.
  induction fuel as [|f IH]; intros n l j Hf Hfree; destruct (Nat.ltb_spec j n) as [Hlt|Hge]; try lia.
  1,3: replace (n - j) with 0 by lia; reflexivity.
  cbn [fe_next]. unfold read_next, release. rewrite visit by (apply Hfree; lia). cbn [bindw hn hreleased].
  rewrite IH; [|lia|intros k Hk [H|H]; [lia|exact (Hfree k ltac:(lia) H)]].
  replace (n - j) with (S (n - S j)) by lia. cbn [seq rev]. rewrite <- app_assoc. reflexivity.
Qed.

Lemma reset_fwd_ok fuel : forall n l k,
  k < n -> n - k <= fuel -> (forall j, k <= j < n -> ~ In j l) ->
  reset_fwd fuel (mkHS n l) k = WOk (mkHS n (rev (seq k (n - 1 - k)) ++ l), n - 1).
Proof.
  induction fuel as [|f IH]; intros n l k Hk Hf Hfree; [lia|].
  cbn [reset_fwd]. unfold read_next. rewrite visit by (apply Hfree; lia). cbn [bindw hn].
  destruct (Nat.ltb_spec (S k) n) as [Hlt|Hge].
  - unfold release. rewrite visit by (apply Hfree; lia). cbn [bindw hn hreleased].
    rewrite IH; [|exact Hlt|lia|intros j Hj [H|H]; [lia|exact (Hfree j ltac:(lia) H)]].
    replace (n - 1 - k) with (S (n - 1 - S k)) by lia. cbn [seq rev]. rewrite <- app_assoc. reflexivity.
  - replace (n - 1 - k) with 0 by lia. replace (n - 1) with k by lia. reflexivity.
Qed.

Lemma fe_prev_fresh n i : i <= n ->
  fe_prev true n (fresh n) (match i with 0 => None | S j => Some j end) = WOk (mkHS n (seq 0 i)).
Proof. intros Hi. unfold fresh. rewrite fe_prev_ok by (first [exact Hi | intros k _ []]). rewrite app_nil_r. reflexivity. Qed.

Lemma walked_perm (a b : list nat) : Permutation (rev b ++ a) (a ++ b).
Proof. rewrite Permutation_app_comm. apply Permutation_app_head. symmetry. apply Permutation_rev. Qed.

(* C05.  WOk: no header was read after its chunk was released *)
Theorem drop_releases_every_chunk_once n i :
  i < n -> exists st', run_drop true (fresh n) i = WOk st' /\ Permutation (hreleased st') (seq 0 n).
Proof.
  intros Hi. unfold run_drop. cbn [hn fresh].
  unfold read_prev at 1. cbn [is_rel fresh hreleased existsb bindw].
  rewrite fe_prev_fresh by lia. cbn [bindw].
  unfold read_next. rewrite visit by (rewrite in_seq; lia). cbn [bindw hn].
  rewrite fe_next_ok by (first [lia | intros k Hk; rewrite in_seq; lia]). cbn [bindw].
  unfold release. rewrite visit by (rewrite in_app_iff, <- in_rev, !in_seq; lia).
  eexists. split; [reflexivity|]. cbn [hreleased].
  replace (seq 0 n) with (seq 0 i ++ i :: seq (S i) (n - S i)) by (rewrite cons_seq, <- seq_app; f_equal; lia).
  apply Permutation_cons_app, walked_perm.
Qed.

(* C05_r8: releasing the chunk before reading its link is a use after free as soon as there is a later chunk *)
Theorem release_before_link_uaf_general n i :
  S i < n -> exists st1, fe_prev true n (fresh n) (match i with 0 => None | S j => Some j end) = WOk st1 /\
             fe_next false n st1 (Some (S i)) = WUaf.
Proof.
  intros Hlt. rewrite fe_prev_fresh by lia. eexists. split; [reflexivity|].
  destruct n as [|n]; [lia|]. cbn [fe_next]. unfold release. rewrite visit by (rewrite in_seq; lia).
  cbn [bindw]. unfold read_next. cbn [is_rel hreleased existsb]. rewrite Nat.eqb_refl. reflexivity.
Qed.

Theorem reset_keeps_exactly_the_last_chunk n i :
  i < n -> exists st', run_reset (fresh n) i = WOk (st', n - 1) /\ Permutation (hreleased st') (seq 0 (n - 1)).
Proof.
  intros Hi. unfold run_reset. cbn [hn fresh].
  unfold read_prev at 1. cbn [is_rel fresh hreleased existsb bindw].
  rewrite fe_prev_fresh by lia. cbn [bindw].
  rewrite reset_fwd_ok by (first [lia | intros k Hk; rewrite in_seq; lia]).
  eexists. split; [reflexivity|]. cbn [hreleased].
  replace (seq 0 (n - 1)) with (seq 0 i ++ seq i (n - 1 - i)) by (rewrite <- seq_app; f_equal; lia).
  apply walked_perm.
Qed.

Lemma walk_to_start_ok fuel : forall n k, k <= fuel -> walk_to_start fuel (fresh n) k = WOk 0.
Proof.
  induction fuel as [|f IH]; intros n k Hk.
  - assert (k = 0) by lia. subst. reflexivity.
  - cbn [walk_to_start]. unfold read_prev, fresh. cbn [is_rel hreleased existsb bindw].
    destruct k as [|j]; [reflexivity|]. apply IH. lia.
Qed.

Theorem reset_to_start_reaches_the_first_chunk n i : i < n -> run_reset_to_start true (fresh n) i = WOk 0.
Proof. intros Hi. unfold run_reset_to_start. cbn [hn fresh]. apply walk_to_start_ok. lia. Qed.

Theorem one_step_back_is_not_the_start n i : 2 <= i -> run_reset_to_start false (fresh n) i = WOk (i - 1) /\ i - 1 <> 0.
Proof.
  intros Hi. unfold run_reset_to_start. cbn [walk_to_start]. unfold read_prev, fresh. cbn [is_rel hreleased existsb bindw].
  destruct i as [|j]; [lia|]. cbn [walk_to_start]. split; [f_equal; lia|lia].
Qed.

(* non-vacuity *)
Example links_example :
  (exists st, run_drop true (fresh 4) 1 = WOk st /\ hreleased st = [1; 3; 2; 0]) /\
  run_drop false (fresh 4) 0 = WUaf /\
  (exists st, run_reset (fresh 4) 1 = WOk (st, 3) /\ hreleased st = [2; 1; 0]) /\
  run_reset_to_start true (fresh 4) 3 = WOk 0 /\ run_reset_to_start false (fresh 4) 3 = WOk 2.
Proof. vm_compute. repeat split; try reflexivity; eexists; split; reflexivity. Qed.
