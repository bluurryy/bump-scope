(* ArenaAlloc.v — C13: the allocated byte count never decreases through an allocation, a
   prepare / fill / commit, or an in-place growth; it can only go down through reclaiming the
   newest block, leaving a scope, or a reset (not covered here); a shrink that the settings or
   WithoutShrink opt out of, or of a block that is not the newest, does not lower it either. *)
From Coq Require Import ZArith List Lia Bool.
From BS Require Import Word BumpSpec Arena ArenaInv ArenaExt ArenaInv2 ArenaReplay.
Import ListNotations.
Open Scope Z_scope.

Definition alloc_bytes (c : cfg) (s : arena) : Z := st_allocated (arena_stats c s).

Lemma capacity_geomt c a b : geomt a = geomt b -> capacity c a = capacity c b.
Proof.
  unfold geomt, capacity, content_end, content_start. intros H. injection H as -> -> _ _. reflexivity.
Qed.

Lemma chunk_ok_bounds c ch : chunk_ok c ch -> 0 <= allocated_in c ch <= capacity c ch.
Proof. intros [_ H]. unfold allocated_in, capacity. destruct (up c); lia. Qed.

Lemma sumZ_firstn_nonneg (l : list Z) : Forall (fun x => 0 <= x) l -> forall j, 0 <= sumZ (firstn j l).
Proof.
  induction 1 as [|x t Hx Ht IH]; intros j; [rewrite firstn_nil; cbn; lia|].
  destruct j as [|j]; [cbn; lia|]. specialize (IH j). unfold sumZ in *. cbn [firstn fold_right]. lia.
Qed.

Lemma sumZ_firstn_le (l : list Z) : Forall (fun x => 0 <= x) l ->
  forall i j, (i <= j)%nat -> sumZ (firstn i l) <= sumZ (firstn j l).
Proof.
  induction 1 as [|x t Hx Ht IH]; intros i j Hij; [rewrite !firstn_nil; lia|].
  destruct i as [|i], j as [|j]; try lia.
  - pose proof (sumZ_firstn_nonneg t Ht j) as Hn. unfold sumZ in *. cbn [firstn fold_right]. lia.
  - assert (Hle : (i <= j)%nat) by lia. specialize (IH i j Hle). unfold sumZ in *. cbn [firstn fold_right]. lia.
Qed.

Lemma sumZ_firstn_S (l : list Z) i x : nth_error l i = Some x -> sumZ (firstn (S i) l) = sumZ (firstn i l) + x.
Proof.
  revert i. induction l as [|y t IH]; intros [|i] H; cbn in H; try discriminate.
  - injection H as ->. cbn. lia.
  - specialize (IH i H). unfold sumZ in *. cbn [firstn fold_right] in *. lia.
Qed.

Lemma nth_error_ext_firstn {A} (a b : list A) : forall i, (forall k, (k < i)%nat -> nth_error a k = nth_error b k) -> firstn i a = firstn i b.
Proof.
  revert b. induction a as [|x a IH]; intros [|y b] [|i] H; try reflexivity; try discriminate (H 0%nat ltac:(lia)).
  injection (H 0%nat ltac:(lia)) as ->. cbn [firstn]. f_equal. apply IH. intros k Hk. apply (H (S k)). lia.
Qed.

Lemma alloc_bytes_cur c s i ch : cur s = Cur i -> nth_error (chunks s) i = Some ch ->
  alloc_bytes c s = allocated_in c ch + sumZ (firstn i (map (capacity c) (chunks s))).
Proof.
  intros Ec En. unfold alloc_bytes, arena_stats, cur_chunk, chunks_before. rewrite Ec, En. cbn [st_allocated].
  rewrite firstn_map. reflexivity.
Qed.

(* when a later chunk is current, the whole old current chunk counts as allocated *)
Lemma alloc_bytes_mono_prefix c s s' i j chi chi' :
  Forall (chunk_ok c) (chunks s') -> chunk_ok c chi ->
  cur s = Cur i -> nth_error (chunks s) i = Some chi ->
  (forall k, (k < i)%nat -> nth_error (chunks s') k = nth_error (chunks s) k) ->
  nth_error (chunks s') i = Some chi' -> capacity c chi' = capacity c chi ->
  cur s' = Cur j -> (i <= j < length (chunks s'))%nat ->
  (j = i -> allocated_in c chi <= allocated_in c chi') ->
  alloc_bytes c s <= alloc_bytes c s'.
Proof.
  intros Hok' Hoki Ec Eni Hpre Eni' Hcap Ec' Hj Hsame.
  destruct (nth_error (chunks s') j) as [chj|] eqn:Enj; [|apply nth_error_None in Enj; lia].
  rewrite (alloc_bytes_cur c s i chi Ec Eni), (alloc_bytes_cur c s' j chj Ec' Enj).
  pose proof (chunk_ok_bounds c chi Hoki) as Bi.
  pose proof (chunk_ok_bounds c chj (Forall_nth_error _ _ _ _ Hok' Enj)) as Bj.
  assert (Hnn : Forall (fun x => 0 <= x) (map (capacity c) (chunks s'))).
  { apply Forall_map. refine (Forall_impl _ _ Hok'). intros ch H. pose proof (chunk_ok_bounds c ch H). lia. }
  assert (Hfi : firstn i (map (capacity c) (chunks s')) = firstn i (map (capacity c) (chunks s))).
  { rewrite !firstn_map. f_equal. apply nth_error_ext_firstn. intros k Hk. apply Hpre. exact Hk. }
  destruct (Nat.eq_dec j i) as [->|Hne].
  - rewrite Hfi. rewrite Eni' in Enj. injection Enj as <-. apply Z.add_le_mono_r, Hsame. reflexivity.
  - assert (Hcapi : nth_error (map (capacity c) (chunks s')) i = Some (capacity c chi)) by (rewrite nth_error_map, Eni'; cbn; congruence).
    pose proof (sumZ_firstn_S _ _ _ Hcapi) as HS.
    pose proof (sumZ_firstn_le _ Hnn (S i) j ltac:(lia)) as Hle.
    rewrite Hfi in HS. lia.
Qed.

Lemma alloc_bytes_mono c s s' i :
  Forall (chunk_ok c) (chunks s) -> Forall (chunk_ok c) (chunks s') ->
  cur s = Cur i -> (i < length (chunks s))%nat -> mono i s s' ->
  (forall chi chi', cur s' = Cur i -> nth_error (chunks s) i = Some chi -> nth_error (chunks s') i = Some chi' ->
     allocated_in c chi <= allocated_in c chi') ->
  alloc_bytes c s <= alloc_bytes c s'.
Proof.
  intros Hok Hok' Ec Hi (Hgp & _ & Hpre & (j & Ec' & Hj)) Hsame.
  destruct (nth_error (chunks s) i) as [chi|] eqn:Eni; [|apply nth_error_None in Eni; lia].
  destruct (gprefix_nth _ _ i chi Hgp Eni) as (chi' & Eni' & Eg).
  apply (alloc_bytes_mono_prefix c s s' i j chi chi' Hok' (Forall_nth_error _ _ _ _ Hok Eni) Ec Eni Hpre Eni'
           (capacity_geomt c _ _ Eg) Ec' Hj).
  intros ->. exact (Hsame chi chi' Ec' eq_refl Eni').
Qed.

Lemma capacity_same_geom c a b : same_geom a b -> capacity c b = capacity c a.
Proof. intros (E1 & E2 & _). unfold capacity, content_end, content_start. rewrite E1, E2. reflexivity. Qed.

Lemma chunk_alloc_advances c m ch size align p ch1 :
  0 <= size -> 0 < align -> 0 < m ->
  chunk_alloc c m ch size align = Some (p, ch1) -> allocated_in c ch <= allocated_in c ch1.
Proof.
  intros Hs Ha Hm H. unfold chunk_alloc in H. unfold allocated_in. destruct (up c) eqn:Eup.
  - unfold spec_up in H. destruct ((cpos ch <=? content_end c ch) && (up_alignZ (cpos ch) align + size <=? content_end c ch)); [|discriminate].
    injection H as _ <-. cbn [cpos set_pos]. unfold content_start. rewrite Eup. cbn [cbase set_pos].
    pose proof (up_align_ge (cpos ch) align Ha). pose proof (up_align_ge (up_alignZ (cpos ch) align + size) m Hm). lia.
  - unfold spec_down in H. destruct ((content_start c ch <=? cpos ch) && (content_start c ch <=? down_alignZ (cpos ch - size) (Z.max align m))); [|discriminate].
    injection H as _ <-. cbn [cpos set_pos]. unfold content_end. rewrite Eup. cbn [cbase csize set_pos].
    pose proof (down_align_le (cpos ch - size) (Z.max align m) ltac:(lia)). lia.
Qed.

(* `adv c i s s'`: seen from chunk i (the current one of s), the arena only advanced *)
Definition adv (c : cfg) (i : nat) (s s' : arena) : Prop :=
  (forall k, (k < i)%nat -> nth_error (chunks s') k = nth_error (chunks s) k) /\
  (exists chi chi', nth_error (chunks s) i = Some chi /\ nth_error (chunks s') i = Some chi' /\ same_geom chi chi' /\
     (cur s' = Cur i -> allocated_in c chi <= allocated_in c chi')) /\
  (exists j, cur s' = Cur j /\ (i <= j)%nat).

Lemma adv_kept c i s s' chi :
  nth_error (chunks s) i = Some chi -> (forall k, (k <= i)%nat -> nth_error (chunks s') k = nth_error (chunks s) k) ->
  (exists j, cur s' = Cur j /\ (i <= j)%nat) -> adv c i s s'.
Proof.
  intros En P J. split; [intros k Hk; apply P; lia|]. split; [|exact J].
  exists chi, chi. split; [exact En|]. split; [rewrite (P i (le_n _)); exact En|]. split; [apply same_geom_refl|lia].
Qed.

Lemma adv_same c i s s' chi :
  nth_error (chunks s) i = Some chi -> chunks s' = chunks s -> cur s' = Cur i -> adv c i s s'.
Proof.
  intros En Ech Ec. apply (adv_kept c i s s' chi En); [intros k _; rewrite Ech; reflexivity|]. exists i. split; [exact Ec|lia].
Qed.

Lemma adv_trans c i j s s1 s2 :
  adv c i s s1 -> cur s1 = Cur j -> adv c j s1 s2 -> adv c i s s2.
Proof.
  intros (P1 & (a & a1 & Ea & Ea1 & G1 & S1) & (j1 & Ej1 & L1)) Ej (P2 & (b & b2 & Eb & Eb2 & G2 & S2) & (j2 & Ej2 & L2)).
  assert (j1 = j) by congruence. subst j1.
  split; [intros k Hk; rewrite (P2 k ltac:(lia)); apply P1; exact Hk|]. split.
  - destruct (Nat.eq_dec j i) as [->|Hne].
    + rewrite Ea1 in Eb. injection Eb as <-. exists a, b2. split; [exact Ea|]. split; [exact Eb2|]. split; [eapply same_geom_trans; eassumption|].
      intros E. specialize (S1 Ej). specialize (S2 E). lia.
    + exists a, a1. split; [exact Ea|]. split; [rewrite (P2 i ltac:(lia)); exact Ea1|]. split; [exact G1|].
      intros E. exfalso. rewrite Ej2 in E. injection E as ->. lia.
  - exists j2. split; [exact Ej2|lia].
Qed.

Lemma adv_alloc_bytes c i s s' :
  ginv c s -> ginv c s' -> cur s = Cur i -> adv c i s s' -> alloc_bytes c s <= alloc_bytes c s'.
Proof.
  intros (Hok & _) Hg' Ec (P & (chi & chi' & Ea & Ea' & G & S) & (j & Ej & L)).
  apply (alloc_bytes_mono_prefix c s s' i j chi chi' (proj1 Hg') (Forall_nth_error _ _ _ _ Hok Ea) Ec Ea P Ea' (capacity_same_geom c _ _ G) Ej).
  - split; [exact L|exact (ginv_cur_lt c s' j Hg' Ej)].
  - intros ->. apply S. exact Ej.
Qed.

Lemma adv_ext c i s s1 s2 : chunks s2 = chunks s1 -> cur s2 = cur s1 -> adv c i s s1 -> adv c i s s2.
Proof. intros E1 E2 (P & Q & J). unfold adv. rewrite E1, E2. split; [exact P|]. split; [exact Q|exact J]. Qed.

Lemma adv_set_cur_pos c s i ch p s1 :
  cur s = Cur i -> nth_error (chunks s) i = Some ch ->
  (if up c then cpos ch <= p else p <= cpos ch) ->
  chunks s1 = chunks s -> cur s1 = cur s -> adv c i s (set_cur_pos s1 p).
Proof.
  intros Ec En Hp E1 E2. pose proof (nth_error_some_lt _ _ _ En) as Hi.
  assert (E : chunks (set_cur_pos s1 p) = set_nth (chunks s) i (set_pos ch p) /\ cur (set_cur_pos s1 p) = Cur i)
    by (unfold set_cur_pos; rewrite E2, E1, Ec, En; cbn [chunks cur upd_chunks]; rewrite E2; split; [reflexivity|exact Ec]).
  destruct E as [Ech Ecu]. unfold adv. rewrite Ech, Ecu.
  split; [intros k Hk; apply nth_error_set_nth_neq; lia|]. split.
  - exists ch, (set_pos ch p). split; [exact En|]. split; [apply nth_error_set_nth_eq; exact Hi|].
    split; [repeat split|]. intros _. unfold allocated_in, content_start, content_end. cbn [cpos cbase csize set_pos]. destruct (up c); lia.
  - exists i. split; [reflexivity|lia].
Qed.

Lemma adv_in_another_chunk {R} c s i chi (f : chunk -> option (R * chunk)) size align r s1 res :
  nth_error (chunks s) i = Some chi -> in_another_chunk c s (Cur i) size align f r = (s1, res) -> adv c i s s1.
Proof.
  intros Eni H.
  destruct (proj2 (in_another_chunk_shape _ _ _ _ _ _ _ _ _ H) i eq_refl (nth_error_some_lt _ _ _ Eni)) as (P & J & _).
  exact (adv_kept c i s s1 chi Eni P J).
Qed.

Section AdvCur.
  Variables (c : cfg) (s : arena) (i : nat).
  Hypotheses (Hg : ginv c s) (Ec : cur s = Cur i).

  Lemma adv_raw_alloc size align r : valid_layout size align -> adv c i s (fst (raw_alloc c s size align r)).
  Proof.
    intros Hl. destruct (ginv_cur c s i Hg Ec) as (chi & Eni & _).
    pose proof (nth_error_some_lt _ _ _ Eni) as Hi.
    rewrite (raw_alloc_cur c s size align r i chi Ec Eni).
    destruct (chunk_alloc c (malign s) chi size align) as [[p ch1]|] eqn:Ef;
      [|exact (adv_in_another_chunk c s i chi _ size align r _ _ Eni (surjective_pairing _))].
    cbn [fst chunks cur upd_chunks].
    destruct Hl as (Ha2 & Hs0 & _). pose proof (pow2_pos _ Ha2) as Hap. pose proof (min_align_pos _ (proj1 (proj2 (proj2 Hg)))) as Hmp.
    split; [intros k Hk; apply nth_error_set_nth_neq; lia|]. split.
    - exists chi, ch1. split; [exact Eni|]. split; [apply nth_error_set_nth_eq; exact Hi|].
      split; [rewrite (chunk_alloc_set_pos _ _ _ _ _ _ _ Ef); apply same_geom_set_pos|].
      intros _. exact (chunk_alloc_advances c (malign s) chi size align p ch1 Hs0 Hap Hmp Ef).
    - exists i. split; [exact Ec|lia].
  Qed.

  Lemma adv_raw_alloc_slow size align r : adv c i s (fst (raw_alloc_slow c s size align r)).
  Proof.
    destruct (ginv_cur c s i Hg Ec) as (chi & Eni & _).
    unfold raw_alloc_slow. rewrite Ec. exact (adv_in_another_chunk c s i chi _ size align r _ _ Eni (surjective_pairing _)).
  Qed.

  Lemma adv_realloc_case (P : Z -> Z -> Prop) K ptr len nsize nalign r x :
    valid_layout nsize nalign -> (forall p q, P p q -> adv c i s (set_cur_pos s p)) ->
    realloc_case P K c s ptr len nsize nalign r x -> adv c i s (fst x).
  Proof.
    intros Hl HP. apply (realloc_case_state P K c s ptr len nsize nalign r x (adv c i s)); [|..|exact HP| |].
    - intros t m H. exact H.
    - destruct (ginv_cur c s i Hg Ec) as (chi & Eni & _). exact (adv_same c i s s chi Eni eq_refl Ec).
    - exact (adv_raw_alloc nsize nalign r Hl).
    - exact (adv_raw_alloc_slow nsize nalign r).
  Qed.

  Lemma adv_raw_grow ptr osize oalign nsize nalign r :
    cfg_ok c -> valid_layout nsize nalign -> 0 <= osize <= nsize ->
    adv c i s (fst (raw_grow c s ptr osize oalign nsize nalign r)).
  Proof.
    intros Hc Hl Hsz.
    refine (adv_realloc_case _ _ _ _ _ _ r _ Hl _ (raw_grow_case c s ptr osize oalign nsize nalign r)).
    (* in place: the newest block ends (starts, downwards) at the position, which moves further *)
    intros p q (El & ch & Ecc & Hp). unfold is_last in El. rewrite Ecc in El.
    destruct (cur_chunk_spec s ch Ecc) as (i' & Ec' & Eni). rewrite Ec in Ec'. injection Ec' as <-.
    apply (adv_set_cur_pos c s i ch p s Ec Eni); [|reflexivity..].
    pose proof Hg as (Hok & _ & Hm & _). pose proof (min_align_pos _ Hm) as Hmp.
    destruct (up c); apply Z.eqb_eq in El.
    - destruct Hp as (_ & _ & _ & ->). pose proof (up_align_ge (ptr + nsize) (malign s) Hmp). lia.
    - destruct Hp as (_ & -> & _).
      pose proof (down_align_le (Z.max (ptr - (nsize - osize)) 0) (Z.max nalign (malign s)) ltac:(lia)).
      pose proof (Forall_nth_error _ _ _ _ Hok Eni) as [Hgeo Hpos]. pose proof (geom_bounds c Hc ch Hgeo) as (Hcs0 & _). lia.
  Qed.

  Lemma adv_ws_shrink ptr osize oalign nsize nalign r :
    valid_layout nsize nalign -> adv c i s (fst (ws_shrink c s ptr osize oalign nsize nalign r)).
  Proof.
    intros Hl. refine (adv_realloc_case _ _ _ _ _ _ r _ Hl _ (ws_shrink_case c s ptr osize oalign nsize nalign r)). intros p q [].
  Qed.

  Lemma adv_raw_shrink_setting_off ptr osize oalign nsize nalign r :
    valid_layout nsize nalign -> shrinks c = false -> adv c i s (fst (raw_shrink c s ptr osize oalign nsize nalign r)).
  Proof.
    intros Hl Hs.
    refine (adv_realloc_case _ _ _ _ _ _ r _ Hl _ (raw_shrink_case c s ptr osize oalign nsize nalign r)). intros p q (Es & _). congruence.
  Qed.
End AdvCur.

Theorem raw_alloc_never_decreases c s i size align r s' res :
  cfg_ok c -> ginv c s -> valid_layout size align -> resp_ok c s size align r -> cur s = Cur i ->
  raw_alloc c s size align r = (s', res) -> alloc_bytes c s <= alloc_bytes c s'.
Proof.
  intros Hc Hg Hl Hr Ec H. destruct (raw_alloc_post c s size align r s' res Hc Hg Hl Hr H) as (_ & Hg' & _).
  pose proof (adv_raw_alloc c s i Hg Ec size align r Hl) as A. rewrite H in A. exact (adv_alloc_bytes c i s s' Hg Hg' Ec A).
Qed.

Definition growing (o : op) : Prop :=
  match o with
  | OAlloc _ _ _ _ _ | OGrow _ _ _ _ _ _ | OFill _ _ | OCheckpoint _ | OStats _
  | OPrepare _ _ _ _ _ | OWriteRaw _ _ _ | OCommit _ _ _ _ _ _ _ _ | OAlignPush _ _ | OAlignPop _ | OReserve _ _
  | OClaim _ | OUnclaim => True
  | _ => False
  end.

Theorem step_adv c s0 o r i :
  cfg_ok c -> inv c s0 -> cur s0 = Cur i -> growing o -> op_ok2 c s0 o -> adv c i s0 (fst (step c s0 o r)).
Proof.
  intros Hc Hinv Ec Hgr Hok.
  pose proof (proj1 (inv_tick c s0 Hinv)) as Hgt.
  pose proof Hgt as (_ & _ & Hm & _). destruct (ginv_cur c s0 i (proj1 Hinv) Ec) as (chi & Eni & _).
  (* most branches leave chunks and current chunk alone, or move the position of the current chunk *)
  pose proof (fun s1 E1 E2 => adv_same c i s0 s1 chi Eni E1 (eq_trans E2 Ec)) as Hsame.
  pose proof (fun p s1 => adv_set_cur_pos c s0 i chi p s1 Ec Eni) as Hmove.
  assert (Ecc : forall s1, chunks s1 = chunks s0 -> cur s1 = cur s0 -> cur_chunk s1 = Some chi)
    by (intros s1 E1 E2; unfold cur_chunk; rewrite E2, E1, Ec; exact Eni).
  destruct o; try destruct Hgr; cbn [step]; set (s := tick s0).
  - (* OAlloc *)
    destruct (negb (is_top s h)); [apply Hsame; reflexivity|].
    pose proof (adv_raw_alloc c s i Hgt Ec size align r Hok) as A.
    destruct (raw_alloc c s size align r) as [s1 [p|e]]; [destruct zeroed|]; exact A.
  - (* OGrow *)
    destruct (find_block s b) as [blk|] eqn:Efb; [|apply Hsame; reflexivity].
    destruct (negb (is_top s h)); [apply Hsame; reflexivity|].
    destruct Hok as [Hl Hsz]. specialize (Hsz blk Efb). destruct (find_block_spec s b blk Efb) as [Hin _].
    pose proof (inv_live_block c s0 blk Hinv Hin) as (H0 & _).
    pose proof (adv_raw_grow c s i Hgt Ec (bptr blk) (bsize blk) (balign blk) nsize nalign r Hc Hl (conj H0 Hsz)) as A.
    destruct (raw_grow c s (bptr blk) (bsize blk) (balign blk) nsize nalign r) as [s1 [ro|e]]; [destruct zeroed|]; exact A.
  - (* OFill *) destruct (find_block s b); apply Hsame; reflexivity.
  - (* OCheckpoint *) apply Hsame; reflexivity.
  - (* OReserve: a chunk may be appended behind the last one, the current chunk pointer stays *)
    destruct (negb (is_top s h)); [apply Hsame; reflexivity|].
    change (cur s) with (cur s0). change (chunks s) with (chunks s0). rewrite Ec, Eni.
    destruct (n <=? _); [apply Hsame; reflexivity|]. destruct (IMAX <? _); [apply Hsame; reflexivity|].
    destruct (grow_arena c s _ 1 r) as [s1 e] eqn:Eg. destruct (grow_arena_shape _ _ _ _ _ _ _ Eg) as (_ & Hs).
    assert (A : adv c i s0 (upd_cur s1 (Cur i))).
    { apply (adv_kept c i s0 _ chi Eni); [|exists i; split; [reflexivity|lia]]. intros k Hk. cbn [chunks upd_cur].
      destruct e; [destruct Hs as [-> _]; reflexivity|]. destruct Hs as (n0 & addr & g & _ & _ & -> & _).
      apply nth_error_app1. pose proof (nth_error_some_lt _ _ _ Eni). cbn [chunks tick]. lia. }
    destruct e; exact A.
  - (* OStats *) destruct (is_top s h); apply Hsame; reflexivity.
  - (* OAlignPush *)
    pose proof (min_align_pos _ Hok) as Hnp.
    destruct (malign s <? n); [|apply Hsame; reflexivity]. rewrite (Ecc s eq_refl eq_refl).
    eapply adv_ext; [| |apply (Hmove (align_posZ (up c) n (cpos chi)) s)]; try reflexivity.
    unfold align_posZ. destruct (up c); [apply up_align_ge|apply down_align_le]; exact Hnp.
  - (* OAlignPop: leaving an aligned region re-aligns forward *)
    cbn [op_ok2] in Hok. change (aligns s0) with (aligns s) in Hok.
    destruct (aligns s) as [|inner [|outer rest]]; try (apply Hsame; reflexivity).
    destruct Hok as [Hv _]. pose proof (min_align_pos _ Hv) as Hop.
    destruct (realign && (inner <? outer)); [|apply Hsame; reflexivity].
    rewrite (Ecc (upd_aligns s (outer :: rest)) eq_refl eq_refl). apply Hmove; try reflexivity.
    unfold align_posZ. destruct (up c); [apply up_align_ge|apply down_align_le]; exact Hop.
  - (* OPrepare *)
    destruct (negb (is_top s h)); [apply Hsame; reflexivity|].
    destruct (IMAX <? es * cap + (ea - 1)); [apply Hsame; reflexivity|].
    destruct (raw_prepare_range c s (es * cap) ea r) as [s1 res] eqn:Ep.
    destruct (prepare_keeps_positions c s i (es * cap) ea r s1 res Hc Hgt Ec Ep) as (P1 & P2).
    pose proof (adv_kept c i s0 s1 chi Eni P1 P2) as A. destruct res as [[st en]|e]; exact A.
  - (* OWriteRaw *) apply Hsame; reflexivity.
  - (* OCommit *)
    destruct Hok as (Hes & Hlen & _ & _ & _ & (i' & ch' & Ec' & En' & Hrange)).
    rewrite Ec in Ec'. injection Ec' as <-. rewrite Eni in En'. injection En' as <-.
    assert (Hb : 0 <= len * es) by nia.
    assert (A : forall x s1, (if up c then cpos chi <= x else x <= cpos chi) -> chunks s1 = chunks s0 -> cur s1 = cur s0 ->
              adv c i s0 (set_cur_pos s1 (commit_pos c (malign s) ea dyn x)))
      by (intros x s1 Hx; apply Hmove; pose proof (commit_pos_bounds c (malign s) ea dyn x Hm); destruct (up c); lia).
    clear - A Hrange Hb.
    destruct rev, (up c); (eapply adv_ext; [| |apply A]); try reflexivity; lia.
  - (* OClaim *) destruct (is_top s h); apply Hsame; reflexivity.
  - (* OUnclaim *) apply Hsame; reflexivity.
Qed.

(* C13: none of these operations lets the allocated byte count go down *)
Theorem growing_step_never_decreases_allocated c s0 o r i :
  cfg_ok c -> inv c s0 -> cur s0 = Cur i -> growing o -> op_ok2 c s0 o -> op_resp_ok2 c s0 o r ->
  alloc_bytes c s0 <= alloc_bytes c (fst (step c s0 o r)).
Proof.
  intros Hc Hinv Ec Hgr Hok Hr.
  pose proof (step_inv c s0 o r Hc Hinv Hok Hr) as (Hg' & _).
  apply (adv_alloc_bytes c i s0 _ (proj1 Hinv) Hg' Ec). apply step_adv; assumption.
Qed.

(* C13, "with SHRINKS=false / WithoutShrink a shrink never decreases it": such a shrink leaves the
   arena as it is (the block already satisfies the new alignment) or allocates a new block and
   copies *)
Definition shrink_opted_out (c : cfg) (o : op) : Prop :=
  match o with
  | OShrink _ ws _ _ _ => has_wrapper WShrink ws = true \/ shrinks c = false
  | _ => False
  end.

Theorem optout_shrink_adv c s0 o r i :
  inv c s0 -> cur s0 = Cur i -> shrink_opted_out c o -> op_ok2 c s0 o -> adv c i s0 (fst (step c s0 o r)).
Proof.
  intros Hinv Ec Hopt Hok. destruct (ginv_cur c s0 i (proj1 Hinv) Ec) as (chi & Eni & _).
  pose proof (fun s1 E1 E2 => adv_same c i s0 s1 chi Eni E1 (eq_trans E2 Ec)) as Hsame.
  pose proof (proj1 (inv_tick c s0 Hinv)) as Hgt.
  destruct o; try (cbn [shrink_opted_out] in Hopt; contradiction); cbn [step]; set (s := tick s0) in *.
  cbn [shrink_opted_out] in Hopt. cbn [op_ok2 op_ok] in Hok. destruct Hok as [Hl _].
  destruct (find_block s b) as [blk|] eqn:Efb; [|apply Hsame; reflexivity].
  match goal with |- context [if ?g then _ else _] => destruct g end.
  { destruct (divides nalign (bptr blk)); apply Hsame; reflexivity. }
  set (go := if has_wrapper WShrink ws then ws_shrink else raw_shrink).
  assert (A : adv c i s0 (fst (go c s (bptr blk) (bsize blk) (balign blk) nsize nalign r))).
  { unfold go. destruct (has_wrapper WShrink ws) eqn:Ew.
    - exact (adv_ws_shrink c s i Hgt Ec (bptr blk) (bsize blk) (balign blk) nsize nalign r Hl).
    - destruct Hopt as [Hx|Hs]; [discriminate|].
      exact (adv_raw_shrink_setting_off c s i Hgt Ec (bptr blk) (bsize blk) (balign blk) nsize nalign r Hl Hs). }
  destruct (go c s (bptr blk) (bsize blk) (balign blk) nsize nalign r) as [s1 [ro|e]]; [|exact A].
  unfold add_block. cbn [fst] in *. eapply adv_ext; [| |exact A]; reflexivity.
Qed.

Theorem optout_shrink_never_decreases_allocated c s0 o r i :
  cfg_ok c -> inv c s0 -> cur s0 = Cur i -> shrink_opted_out c o -> op_ok2 c s0 o -> op_resp_ok2 c s0 o r ->
  alloc_bytes c s0 <= alloc_bytes c (fst (step c s0 o r)).
Proof.
  intros Hc Hinv Ec Hopt Hok Hr.
  pose proof (step_inv c s0 o r Hc Hinv Hok Hr) as (Hg' & _).
  apply (adv_alloc_bytes c i s0 _ (proj1 Hinv) Hg' Ec). apply optout_shrink_adv; assumption.
Qed.

(* C13, "shrinking any other block reclaims nothing" *)
Theorem nonlast_fit_shrink_keeps_state c s ptr osize oalign nsize nalign r :
  divides nalign ptr = true -> is_last c s ptr osize = false ->
  raw_shrink c s ptr osize oalign nsize nalign r = (s, inl (mkRO ptr osize false)).
Proof.
  intros Hd Hl. unfold raw_shrink. rewrite Hd, Hl. cbn [negb]. rewrite orb_true_r. reflexivity.
Qed.

(* non-vacuity: allocations that outgrow a chunk, and a grow in place *)
Module AllocExample.
  Definition c0 : cfg := mkCfg true false true true 512 32 16 true.
  Definition s0 : arena := fst (init_with_size c0 1 512 (Some (65536, 512))).
  Definition s1 := fst (step c0 s0 (OAlloc 0 [] 100 4 false) None).
  Definition s2 := fst (step c0 s1 (OGrow 0 [] 0 200 4 false) None).
  Definition s3 := fst (step c0 s2 (OAlloc 0 [] 400 8 false) (Some (131072, 1024))).
  Example bytes : map (alloc_bytes c0) [s0; s1; s2; s3] = [0; 100; 200; 880].
  Proof. vm_compute. reflexivity. Qed.
End AllocExample.
