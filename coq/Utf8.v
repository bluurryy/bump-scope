(* Utf8.v — UTF-8 as the string types rely on it (MODEL + its characterisation).
   Bytes and code points are Z.  `decode1` is the Unicode 15 table 3-7 recogniser (what
   core::str::from_utf8 accepts), `encode` is char::encode_utf8, `boundaryb` is
   str::is_char_boundary.  The characterisation proved here — a byte string is accepted iff it
   is the concatenation of the encodings of scalar values, and its char boundaries are exactly
   the ends of those encodings — is what every string operation's validity proof rests on. *)
From Coq Require Import ZArith List Lia Bool.
Import ListNotations.
Local Open Scope Z_scope.

Definition cont (b : Z) : bool := (128 <=? b) && (b <? 192).

(* Unicode scalar values: code points without the surrogates *)
Definition scalar (c : Z) : bool :=
  ((0 <=? c) && (c <? 55296)) || ((57344 <=? c) && (c <? 1114112)).

(* char::encode_utf8 *)
Definition encode (c : Z) : list Z :=
  if c <? 128 then [c]
  else if c <? 2048 then [192 + c / 64; 128 + c mod 64]
  else if c <? 65536 then [224 + c / 4096; 128 + (c / 64) mod 64; 128 + c mod 64]
  else [240 + c / 262144; 128 + (c / 4096) mod 64; 128 + (c / 64) mod 64; 128 + c mod 64].

Definition enc (cs : list Z) : list Z := flat_map encode cs.

(* core::str::utf8_char_width of a leading byte *)
Definition width (b0 : Z) : nat :=
  if b0 <? 128 then 1%nat else if b0 <? 224 then 2%nat else if b0 <? 240 then 3%nat else 4%nat.

(* the first well-formed byte sequence at the head of l: (code point, remaining bytes) *)
Definition decode1 (l : list Z) : option (Z * list Z) :=
  match l with
  | [] => None
  | b0 :: t0 =>
    if (0 <=? b0) && (b0 <? 128) then Some (b0, t0)
    else if (194 <=? b0) && (b0 <? 224) then
      match t0 with
      | b1 :: t1 => if cont b1 then Some ((b0 - 192) * 64 + (b1 - 128), t1) else None
      | _ => None
      end
    else if (224 <=? b0) && (b0 <? 240) then
      match t0 with
      | b1 :: b2 :: t2 =>
        if cont b1 && cont b2 && ((negb (b0 =? 224)) || (160 <=? b1)) && ((negb (b0 =? 237)) || (b1 <? 160))
        then Some ((b0 - 224) * 4096 + (b1 - 128) * 64 + (b2 - 128), t2) else None
      | _ => None
      end
    else if (240 <=? b0) && (b0 <? 245) then
      match t0 with
      | b1 :: b2 :: b3 :: t3 =>
        if cont b1 && cont b2 && cont b3 && ((negb (b0 =? 240)) || (144 <=? b1)) && ((negb (b0 =? 244)) || (b1 <? 144))
        then Some ((b0 - 240) * 262144 + (b1 - 128) * 4096 + (b2 - 128) * 64 + (b3 - 128), t3) else None
      | _ => None
      end
    else None
  end.

(* fuel: one unit per character; `decode` gives it the number of bytes *)
Fixpoint decode_fuel (n : nat) (l : list Z) : option (list Z) :=
  match l with
  | [] => Some []
  | _ =>
    match n with
    | O => None
    | S n' =>
      match decode1 l with
      | Some (c, rest) => match decode_fuel n' rest with Some cs => Some (c :: cs) | None => None end
      | None => None
      end
    end
  end.

Definition decode (l : list Z) : option (list Z) := decode_fuel (length l) l.
Definition valid (l : list Z) : bool := match decode l with Some _ => true | None => false end.

(* str::is_char_boundary *)
Definition boundaryb (l : list Z) (i : nat) : bool :=
  match i with
  | O => true
  | _ => match nth_error l i with
         | Some b => negb (cont b)
         | None => Nat.eqb i (length l)
         end
  end.

Lemma encode_length_pos c : (1 <= length (encode c))%nat.
Proof. unfold encode. destruct (c <? 128), (c <? 2048), (c <? 65536); cbn; lia. Qed.

(* The rows of table 3-7: a scalar value next to its well-formed byte sequence.  `decode1` reads
   the table from the bytes, `encode` from the value; both are compared with it, once per row. *)
Inductive row : Z -> list Z -> Prop :=
| row1 b0 : 0 <= b0 < 128 -> row b0 [b0]
| row2 b0 b1 : 194 <= b0 < 224 -> 128 <= b1 < 192 ->
    row ((b0 - 192) * 64 + (b1 - 128)) [b0; b1]
| row3 b0 b1 b2 : 224 <= b0 < 240 -> 128 <= b1 < 192 -> 128 <= b2 < 192 ->
    (b0 = 224 -> 160 <= b1) -> (b0 = 237 -> b1 < 160) ->
    row ((b0 - 224) * 4096 + (b1 - 128) * 64 + (b2 - 128)) [b0; b1; b2]
| row4 b0 b1 b2 b3 : 240 <= b0 < 245 -> 128 <= b1 < 192 -> 128 <= b2 < 192 -> 128 <= b3 < 192 ->
    (b0 = 240 -> 144 <= b1) -> (b0 = 244 -> b1 < 144) ->
    row ((b0 - 240) * 262144 + (b1 - 128) * 4096 + (b2 - 128) * 64 + (b3 - 128)) [b0; b1; b2; b3].

Lemma decode1_row l c rest : decode1 l = Some (c, rest) -> exists e, row c e /\ l = e ++ rest.
Proof.
  unfold decode1, cont. destruct l as [|b0 t0]; [discriminate|].
  destruct ((0 <=? b0) && (b0 <? 128)) eqn:E1.
  { intros [= <- <-]. exists [b0]. split; [apply row1; lia|reflexivity]. }
  destruct ((194 <=? b0) && (b0 <? 224)) eqn:E2.
  { destruct t0 as [|b1 t1]; [discriminate|].
    destruct ((128 <=? b1) && (b1 <? 192)) eqn:C; [|discriminate].
    intros [= <- <-]. exists [b0; b1]. split; [apply row2; lia|reflexivity]. }
  destruct ((224 <=? b0) && (b0 <? 240)) eqn:E3.
  { destruct t0 as [|b1 [|b2 t2]]; try discriminate.
    destruct (_ && _ && _ && _) eqn:C; [|discriminate].
    intros [= <- <-]. exists [b0; b1; b2]. split; [apply row3; lia|reflexivity]. }
  destruct ((240 <=? b0) && (b0 <? 245)) eqn:E4; [|discriminate].
  destruct t0 as [|b1 [|b2 [|b3 t3]]]; try discriminate.
  destruct (_ && _ && _ && _ && _) eqn:C; [|discriminate].
  intros [= <- <-]. exists [b0; b1; b2; b3]. split; [apply row4; lia|reflexivity].
Qed.

Lemma row_decode1 c e t : row c e -> decode1 (e ++ t) = Some (c, t).
Proof.
  intros [b0 H0|b0 b1 H0 H1|b0 b1 b2 H0 H1 H2 Hlo Hhi|b0 b1 b2 b3 H0 H1 H2 H3 Hlo Hhi];
    cbn [app decode1]; unfold cont.
  - replace ((0 <=? b0) && (b0 <? 128)) with true by lia. reflexivity.
  - replace ((0 <=? b0) && (b0 <? 128)) with false by lia.
    replace ((194 <=? b0) && (b0 <? 224)) with true by lia.
    replace ((128 <=? b1) && (b1 <? 192)) with true by lia. reflexivity.
  - replace ((0 <=? b0) && (b0 <? 128)) with false by lia.
    replace ((194 <=? b0) && (b0 <? 224)) with false by lia.
    replace ((224 <=? b0) && (b0 <? 240)) with true by lia.
    replace (_ && _ && _ && _) with true by lia. reflexivity.
  - replace ((0 <=? b0) && (b0 <? 128)) with false by lia.
    replace ((194 <=? b0) && (b0 <? 224)) with false by lia.
    replace ((224 <=? b0) && (b0 <? 240)) with false by lia.
    replace ((240 <=? b0) && (b0 <? 245)) with true by lia.
    replace (_ && _ && _ && _ && _) with true by lia. reflexivity.
Qed.

Lemma div64 q r : 0 <= r < 64 -> (q * 64 + r) / 64 = q.
Proof. intros H. rewrite Z.div_add_l, Z.div_small by lia. apply Z.add_0_r. Qed.
Lemma mod64 q r : 0 <= r < 64 -> (q * 64 + r) mod 64 = r.
Proof. intros H. rewrite Z.add_comm, Z.mod_add by lia. apply Z.mod_small, H. Qed.

Lemma row_encode c e : row c e -> encode c = e /\ scalar c = true.
Proof.
  intros [b0 H0|b0 b1 H0 H1|b0 b1 b2 H0 H1 H2 Hlo Hhi|b0 b1 b2 b3 H0 H1 H2 H3 Hlo Hhi];
    unfold encode, scalar.
  - replace (b0 <? 128) with true by lia. split; [reflexivity|lia].
  - set (v := (b0 - 192) * 64 + (b1 - 128)).
    replace (v <? 128) with false by lia. replace (v <? 2048) with true by lia.
    split; [|lia]. unfold v. rewrite div64, mod64 by lia. f_equal; [lia|f_equal; lia].
  - (* the value in Horner form, so that the digits can be peeled off one by one *)
    replace ((b0 - 224) * 4096 + (b1 - 128) * 64 + (b2 - 128))
      with (((b0 - 224) * 64 + (b1 - 128)) * 64 + (b2 - 128)) by lia.
    set (v := ((b0 - 224) * 64 + (b1 - 128)) * 64 + (b2 - 128)).
    replace (v <? 128) with false by lia. replace (v <? 2048) with false by lia.
    replace (v <? 65536) with true by lia.
    split; [|lia]. change 4096 with (64 * 64). rewrite <- Z.div_div by lia.
    unfold v. rewrite !div64, !mod64 by lia. f_equal; [lia|f_equal; [lia|f_equal; lia]].
  - replace ((b0 - 240) * 262144 + (b1 - 128) * 4096 + (b2 - 128) * 64 + (b3 - 128))
      with ((((b0 - 240) * 64 + (b1 - 128)) * 64 + (b2 - 128)) * 64 + (b3 - 128)) by lia.
    set (v := (((b0 - 240) * 64 + (b1 - 128)) * 64 + (b2 - 128)) * 64 + (b3 - 128)).
    replace (v <? 128) with false by lia. replace (v <? 2048) with false by lia.
    replace (v <? 65536) with false by lia.
    split; [|lia]. change 262144 with (64 * 64 * 64). change 4096 with (64 * 64).
    rewrite <- !Z.div_div by lia.
    unfold v. rewrite !div64, !mod64 by lia.
    f_equal; [lia|f_equal; [lia|f_equal; [lia|f_equal; lia]]].
Qed.

Lemma encode_row c : scalar c = true -> row c (encode c).
Proof.
  intros Hs. unfold scalar in Hs.
  pose proof (Z.div_mod c 64 ltac:(lia)). pose proof (Z.mod_pos_bound c 64 ltac:(lia)).
  set (q := c / 64) in *. set (r := c mod 64) in *.
  pose proof (Z.div_mod q 64 ltac:(lia)). pose proof (Z.mod_pos_bound q 64 ltac:(lia)).
  set (q2 := q / 64) in *. set (r2 := q mod 64) in *.
  pose proof (Z.div_mod q2 64 ltac:(lia)). pose proof (Z.mod_pos_bound q2 64 ltac:(lia)).
  set (q3 := q2 / 64) in *. set (r3 := q2 mod 64) in *.
  assert (R : exists e, row c e).
  { destruct (Z.lt_ge_cases c 128); [exists [c]; apply row1; lia|].
    destruct (Z.lt_ge_cases c 2048).
    { exists [192 + q; 128 + r]. replace c with ((192 + q - 192) * 64 + (128 + r - 128)) by lia. apply row2; lia. }
    destruct (Z.lt_ge_cases c 65536).
    { exists [224 + q2; 128 + r2; 128 + r].
      replace c with ((224 + q2 - 224) * 4096 + (128 + r2 - 128) * 64 + (128 + r - 128)) by lia. apply row3; lia. }
    exists [240 + q3; 128 + r3; 128 + r2; 128 + r].
    replace c with ((240 + q3 - 240) * 262144 + (128 + r3 - 128) * 4096 + (128 + r2 - 128) * 64 + (128 + r - 128)) by lia.
    apply row4; lia. }
  destruct R as [e R]. rewrite (proj1 (row_encode c e R)). exact R.
Qed.

Lemma decode1_encode c t : scalar c = true -> decode1 (encode c ++ t) = Some (c, t).
Proof. intros Hs. apply row_decode1, encode_row, Hs. Qed.

Lemma decode1_sound l c rest : decode1 l = Some (c, rest) -> l = encode c ++ rest /\ scalar c = true.
Proof.
  intros H. destruct (decode1_row _ _ _ H) as (e & Hr & ->).
  destruct (row_encode _ _ Hr) as [-> Hs]. split; [reflexivity|exact Hs].
Qed.

Lemma row_shape c e : row c e ->
  exists b r, e = b :: r /\ cont b = false /\ forallb cont r = true /\
              length e = width b /\ 0 <= b < 256 /\ (b <? 128) = (c <? 128).
Proof.
  intros [b0 H0|b0 b1 H0 H1|b0 b1 b2 H0 H1 H2 Hlo _|b0 b1 b2 b3 H0 H1 H2 H3 Hlo _];
    eexists _, _; (split; [reflexivity|]); unfold cont, width; cbn [forallb length].
  - replace (b0 <? 128) with true by lia. lia.
  - replace (b0 <? 128) with false by lia. replace (b0 <? 224) with true by lia. lia.
  - replace (b0 <? 128) with false by lia. replace (b0 <? 224) with false by lia.
    replace (b0 <? 240) with true by lia. lia.
  - replace (b0 <? 128) with false by lia. replace (b0 <? 224) with false by lia.
    replace (b0 <? 240) with false by lia. lia.
Qed.

Lemma encode_shape c : scalar c = true ->
  exists b r, encode c = b :: r /\ cont b = false /\ forallb cont r = true /\
              length (encode c) = width b /\ 0 <= b < 256 /\ (b <? 128) = (c <? 128).
Proof. intros Hs. apply row_shape, encode_row, Hs. Qed.

Lemma enc_cons c cs : enc (c :: cs) = encode c ++ enc cs.
Proof. reflexivity. Qed.

Lemma enc_app a b : enc (a ++ b) = enc a ++ enc b.
Proof. unfold enc. apply flat_map_app. Qed.

Lemma decode1_shorter l c rest : decode1 l = Some (c, rest) -> (length rest < length l)%nat.
Proof.
  intros H. destruct (decode1_sound _ _ _ H) as [-> _]. rewrite app_length.
  pose proof (encode_length_pos c). lia.
Qed.

Lemma decode_fuel_S n l : l <> [] ->
  decode_fuel (S n) l =
  match decode1 l with
  | Some (c, rest) => match decode_fuel n rest with Some cs => Some (c :: cs) | None => None end
  | None => None
  end.
Proof. destruct l; [congruence|reflexivity]. Qed.

Lemma encode_app_nonempty c t : encode c ++ t <> [].
Proof. pose proof (encode_length_pos c) as H. destruct (encode c); [inversion H|discriminate]. Qed.

Lemma decode_fuel_enc n cs :
  Forall (fun c => scalar c = true) cs -> (length cs <= n)%nat ->
  decode_fuel n (enc cs) = Some cs.
Proof.
  intros Hs. revert n. induction Hs as [|c cs Hc Hcs IH]; intros n Hn.
  - destruct n; reflexivity.
  - destruct n as [|n]; [cbn in Hn; lia|].
    rewrite enc_cons, decode_fuel_S, decode1_encode, IH by (apply encode_app_nonempty || assumption || cbn in Hn; lia).
    reflexivity.
Qed.

Lemma enc_length_ge cs : (length cs <= length (enc cs))%nat.
Proof.
  induction cs as [|c cs IH]; [cbn; lia|]. rewrite enc_cons, app_length. cbn [length].
  pose proof (encode_length_pos c). lia.
Qed.

Theorem decode_enc cs : Forall (fun c => scalar c = true) cs -> decode (enc cs) = Some cs.
Proof. intros H. unfold decode. apply decode_fuel_enc; [exact H|apply enc_length_ge]. Qed.

Lemma decode_fuel_sound n l cs :
  decode_fuel n l = Some cs -> l = enc cs /\ Forall (fun c => scalar c = true) cs.
Proof.
  revert l cs. induction n as [|n IH]; intros l cs H.
  - destruct l; [|discriminate]. injection H as <-. split; [reflexivity|constructor].
  - destruct l as [|x xs]; [injection H as <-; split; [reflexivity|constructor]|].
    cbn [decode_fuel] in H. destruct (decode1 (x :: xs)) as [[c rest]|] eqn:D; [|discriminate].
    destruct (decode_fuel n rest) as [cs0|] eqn:D2; [|discriminate]. injection H as <-.
    destruct (decode1_sound _ _ _ D) as [-> Hc]. destruct (IH _ _ D2) as [-> Hcs].
    split; [reflexivity|constructor; assumption].
Qed.

Theorem decode_sound l cs : decode l = Some cs -> l = enc cs /\ Forall (fun c => scalar c = true) cs.
Proof. apply decode_fuel_sound. Qed.

Theorem valid_iff l : valid l = true <-> exists cs, Forall (fun c => scalar c = true) cs /\ l = enc cs.
Proof.
  unfold valid. split.
  - destruct (decode l) as [cs|] eqn:D; [|discriminate]. intros _. exists cs.
    destruct (decode_sound _ _ D). split; assumption.
  - intros (cs & Hs & ->). rewrite decode_enc by exact Hs. reflexivity.
Qed.

Theorem valid_app a b : valid a = true -> valid b = true -> valid (a ++ b) = true.
Proof.
  rewrite !valid_iff. intros (ca & Ha & ->) (cb & Hb & ->). exists (ca ++ cb).
  split; [apply Forall_app; split; assumption|symmetry; apply enc_app].
Qed.

Lemma valid_encode c : scalar c = true -> valid (encode c) = true.
Proof. intros H. apply valid_iff. exists [c]. split; [constructor; [exact H|constructor]|cbn; rewrite app_nil_r; reflexivity]. Qed.

Lemma valid_nil : valid [] = true.
Proof. reflexivity. Qed.

Definition is_end (cs : list Z) (i : nat) : Prop := exists k, i = length (enc (firstn k cs)).

Lemma is_end_iff cs i : is_end cs i <-> exists c1 c2, cs = c1 ++ c2 /\ i = length (enc c1).
Proof.
  split.
  - intros [k ->]. exists (firstn k cs), (skipn k cs). split; [symmetry; apply firstn_skipn|reflexivity].
  - intros (c1 & c2 & -> & ->). exists (length c1).
    rewrite firstn_app, Nat.sub_diag, firstn_all, firstn_O, app_nil_r. reflexivity.
Qed.

Lemma is_end_cons c cs i :
  is_end (c :: cs) i <-> i = O \/ (length (encode c) <= i)%nat /\ is_end cs (i - length (encode c)).
Proof.
  split.
  - intros [[|k] ->]; [left; reflexivity|right]. cbn [firstn]. rewrite enc_cons, app_length.
    split; [lia|]. exists k. lia.
  - intros [->|[Hle [k Hk]]]; [exists O; reflexivity|]. exists (S k). cbn [firstn].
    rewrite enc_cons, app_length. lia.
Qed.

Lemma nth_error_cont_tail r j b : forallb cont r = true -> nth_error r j = Some b -> cont b = true.
Proof. intros Hf H. exact (proj1 (forallb_forall cont r) Hf b (nth_error_In r j H)). Qed.

Lemma boundaryb_inside b r l i :
  forallb cont r = true -> (0 < i < length (b :: r))%nat -> boundaryb ((b :: r) ++ l) i = false.
Proof.
  intros Hr Hi. destruct i as [|i]; [lia|]. unfold boundaryb.
  rewrite nth_error_app1 by apply Hi. cbn [nth_error length] in *.
  destruct (nth_error r i) as [x|] eqn:En.
  - rewrite (nth_error_cont_tail r i x Hr En). reflexivity.
  - apply nth_error_None in En. lia.
Qed.

Lemma boundaryb_past x l i :
  (1 <= length x <= i)%nat -> match l with y :: _ => cont y = false | [] => True end ->
  boundaryb (x ++ l) i = boundaryb l (i - length x).
Proof.
  intros Hi Hl. destruct i as [|i]; [lia|]. unfold boundaryb at 1.
  rewrite nth_error_app2, app_length by apply Hi.
  destruct (S i - length x)%nat as [|j] eqn:Ej; unfold boundaryb.
  - destruct l as [|y ys]; cbn [nth_error length]; [apply Nat.eqb_eq; lia|rewrite Hl; reflexivity].
  - destruct (nth_error l (S j)); [reflexivity|].
    apply eq_true_iff_eq. rewrite !Nat.eqb_eq. lia.
Qed.

Lemma enc_head cs : Forall (fun c => scalar c = true) cs ->
  match enc cs with y :: _ => cont y = false | [] => True end.
Proof.
  intros [|c cs' Hc _]; [exact I|]. destruct (encode_shape c Hc) as (b & r & Ee & Hb & _).
  rewrite enc_cons, Ee. exact Hb.
Qed.

Theorem boundary_iff cs i :
  Forall (fun c => scalar c = true) cs ->
  (boundaryb (enc cs) i = true <-> is_end cs i).
Proof.
  intros Hs. revert i. induction Hs as [|c cs Hc Hcs IH]; intros i.
  - unfold is_end. cbn. split.
    + destruct i as [|i]; [intros _; exists O; reflexivity|]. cbn. destruct i; cbn; discriminate.
    + intros [k ->]. rewrite firstn_nil. reflexivity.
  - rewrite is_end_cons, enc_cons. pose proof (encode_length_pos c) as Hn.
    destruct (Nat.lt_ge_cases i (length (encode c))) as [Hlt|Hge].
    + destruct i as [|i]; [split; [left|]; reflexivity|].
      destruct (encode_shape c Hc) as (b & r & Ee & _ & Hr & _). rewrite Ee in *.
      rewrite boundaryb_inside by (exact Hr || lia). split; [discriminate|lia].
    + rewrite boundaryb_past, IH by (apply enc_head, Hcs || lia). split; [tauto|].
      intros [->|[_ H]]; [lia|exact H].
Qed.

Lemma boundary_split l i : valid l = true -> boundaryb l i = true ->
  exists c1 c2, Forall (fun c => scalar c = true) c1 /\ Forall (fun c => scalar c = true) c2 /\
                l = enc c1 ++ enc c2 /\ i = length (enc c1).
Proof.
  intros Hv Hb. apply valid_iff in Hv. destruct Hv as (cs & Hs & ->).
  apply (boundary_iff cs i Hs), is_end_iff in Hb. destruct Hb as (c1 & c2 & -> & ->).
  apply Forall_app in Hs. exists c1, c2. rewrite enc_app. tauto.
Qed.

Theorem valid_split l i :
  valid l = true -> boundaryb l i = true ->
  valid (firstn i l) = true /\ valid (skipn i l) = true.
Proof.
  intros Hv Hb. destruct (boundary_split l i Hv Hb) as (c1 & c2 & H1 & H2 & -> & ->).
  rewrite firstn_app, Nat.sub_diag, firstn_all, firstn_O, app_nil_r.
  rewrite skipn_app, Nat.sub_diag, skipn_all, skipn_O. cbn [app].
  split; apply valid_iff; eexists; (split; [|reflexivity]); assumption.
Qed.

Lemma boundary_le_length l i : boundaryb l i = true -> (i <= length l)%nat.
Proof.
  unfold boundaryb. destruct i as [|i]; [lia|]. destruct (nth_error l (S i)) eqn:E.
  - intros _. apply Nat.lt_le_incl. apply nth_error_Some. congruence.
  - intros H. apply Nat.eqb_eq in H. lia.
Qed.

Lemma nth_error_skipn {A} a : forall (l : list A) j, nth_error (skipn a l) j = nth_error l (a + j).
Proof. induction a as [|a IH]; intros [|x l] j; cbn; try reflexivity; [destruct j; reflexivity|apply IH]. Qed.

Lemma boundaryb_skipn l a b : boundaryb l b = true -> boundaryb (skipn a l) (b - a) = true.
Proof.
  unfold boundaryb. destruct (b - a)%nat as [|j] eqn:E; [reflexivity|].
  destruct b as [|b]; [lia|]. rewrite nth_error_skipn, skipn_length.
  replace (a + S j)%nat with (S b) by lia. destruct (nth_error l (S b)); [trivial|].
  rewrite !Nat.eqb_eq. lia.
Qed.

Lemma boundary_0 l : boundaryb l 0 = true.
Proof. reflexivity. Qed.
Lemma boundary_len l : boundaryb l (length l) = true.
Proof.
  unfold boundaryb. destruct (length l) as [|n] eqn:E; [reflexivity|].
  rewrite <- E. replace (nth_error l (length l)) with (@None Z) by (symmetry; apply nth_error_None; lia).
  apply Nat.eqb_refl.
Qed.

Theorem next_boundary l i b :
  valid l = true -> boundaryb l i = true -> nth_error l i = Some b ->
  boundaryb l (i + width b) = true /\
  exists c, scalar c = true /\ length (encode c) = width b /\ firstn (width b) (skipn i l) = encode c /\
            decode1 (skipn i l) = Some (c, skipn (i + width b) l).
Proof.
  intros Hv Hb Hn. destruct (boundary_split l i Hv Hb) as (c1 & [|c c2] & H1 & H2 & -> & ->);
    rewrite nth_error_app2, Nat.sub_diag in Hn by lia; [discriminate|].
  inversion H2 as [|? ? Hc H2']; subst.
  destruct (encode_shape c Hc) as (b' & r & Ee & _ & _ & Hw & _).
  rewrite enc_cons, Ee in Hn. injection Hn as ->. rewrite <- Hw. clear Ee Hw.
  split.
  - rewrite <- enc_app. apply boundary_iff; [apply Forall_app; split; assumption|]. apply is_end_iff.
    exists (c1 ++ [c]), c2. rewrite <- app_assoc, enc_app, app_length. cbn. rewrite app_nil_r. split; reflexivity.
  - exists c. split; [exact Hc|]. split; [reflexivity|].
    rewrite skipn_app, skipn_all, Nat.sub_diag, skipn_O, enc_cons. cbn [app]. split.
    + rewrite firstn_app, firstn_all, Nat.sub_diag, firstn_O. apply app_nil_r.
    + rewrite decode1_encode by exact Hc. f_equal. f_equal.
      rewrite app_assoc, <- app_length. rewrite skipn_app, skipn_all, Nat.sub_diag, skipn_O. reflexivity.
Qed.
