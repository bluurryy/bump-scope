(* StatsSpec.v — the statistics as summing rules.  src/stats.rs and src/stats/any.rs compute count / size / capacity /
   allocated / remaining as: a term of the current chunk, plus a term per earlier chunk, plus a term per later
   chunk.  tools/statsites.py reads those rules out of the CURRENT source (gen/StatsRules.v); this file
   evaluates a rule over the model's chunk list and says what the right rules are: rules_ok decides it, and
   rules_compute_arena_stats proves that each rule of a table that passes computes its field of Arena.arena_stats
   for every arena state. *)
From Coq Require Import ZArith List Bool Lia.
From BS Require Import Arena ArenaStats.
Export ListNotations.
Open Scope Z_scope.

Inductive sname := Scount | Ssize | Scapacity | Sallocated | Sremaining.
Inductive field := Fsize | Fcapacity | Fallocated | Fremaining.
Inductive term := TOne | TField (f : field).
Record rule := mkRule { r_name : sname; r_init : term; r_prev : option term; r_next : option term }.

Definition field_of (c : cfg) (f : field) (ch : chunk) : Z :=
  match f with
  | Fsize => csize ch | Fcapacity => capacity c ch
  | Fallocated => allocated_in c ch | Fremaining => remaining_in c ch
  end.
Definition term_of (c : cfg) (t : term) (ch : chunk) : Z := match t with TOne => 1 | TField f => field_of c f ch end.
Definition opt_sum (c : cfg) (t : option term) (l : list chunk) : Z :=
  match t with None => 0 | Some t => sumZ (map (term_of c t) l) end.

(* what the code computes for a rule when `cur` is the current chunk, `before` / `after` the chunks on either side *)
Definition eval_rule (c : cfg) (r : rule) (before : list chunk) (cur : chunk) (after : list chunk) : Z :=
  term_of c (r_init r) cur + opt_sum c (r_prev r) before + opt_sum c (r_next r) after.

Definition term_eqb (a b : term) : bool :=
  match a, b with
  | TOne, TOne => true
  | TField Fsize, TField Fsize | TField Fcapacity, TField Fcapacity
  | TField Fallocated, TField Fallocated | TField Fremaining, TField Fremaining => true
  | _, _ => false
  end.
Definition oterm_eqb (a b : option term) : bool :=
  match a, b with None, None => true | Some x, Some y => term_eqb x y | _, _ => false end.

Definition expected (n : sname) : term * option term * option term :=
  match n with
  | Scount => (TOne, Some TOne, Some TOne)
  | Ssize => (TField Fsize, Some (TField Fsize), Some (TField Fsize))
  | Scapacity => (TField Fcapacity, Some (TField Fcapacity), Some (TField Fcapacity))
  | Sallocated => (TField Fallocated, Some (TField Fcapacity), None)
  | Sremaining => (TField Fremaining, None, Some (TField Fcapacity))
  end.
Definition rule_ok (r : rule) : bool :=
  let '(i, p, n) := expected (r_name r) in
  term_eqb (r_init r) i && oterm_eqb (r_prev r) p && oterm_eqb (r_next r) n.
Definition sname_eqb (a b : sname) : bool :=
  match a, b with Scount, Scount | Ssize, Ssize | Scapacity, Scapacity | Sallocated, Sallocated | Sremaining, Sremaining => true | _, _ => false end.
Definition rules_ok (l : list rule) : bool :=
  forallb rule_ok l &&
  forallb (fun n => existsb (fun r => sname_eqb (r_name r) n) l) [Scount; Ssize; Scapacity; Sallocated; Sremaining].

Lemma term_eqb_eq a b : term_eqb a b = true -> a = b.
Proof. destruct a as [|[]], b as [|[]]; cbn; intros; congruence. Qed.
Lemma oterm_eqb_eq a b : oterm_eqb a b = true -> a = b.
Proof. destruct a, b; cbn; intros H; try discriminate; [f_equal; apply term_eqb_eq; exact H|reflexivity]. Qed.

Lemma sumZ_ones {A} (l : list A) : sumZ (map (fun _ => 1) l) = Z.of_nat (length l).
Proof. unfold sumZ. induction l as [|x t IH]; [reflexivity|]. cbn [map fold_right length]. rewrite IH. lia. Qed.

Lemma sum_tone c (l : list chunk) : sumZ (map (term_of c TOne) l) = Z.of_nat (length l).
Proof. exact (sumZ_ones l). Qed.
Lemma sum_tfield c f (l : list chunk) : sumZ (map (term_of c (TField f)) l) = sumZ (map (field_of c f) l).
Proof. reflexivity. Qed.
Lemma sumZ_cons x l : sumZ (x :: l) = x + sumZ l. Proof. reflexivity. Qed.

Theorem rule_ok_spec c r before cur after :
  rule_ok r = true ->
  eval_rule c r before cur after =
  let all := before ++ cur :: after in
  match r_name r with
  | Scount => Z.of_nat (length all)
  | Ssize => sumZ (map (field_of c Fsize) all)
  | Scapacity => sumZ (map (field_of c Fcapacity) all)
  | Sallocated => field_of c Fallocated cur + sumZ (map (field_of c Fcapacity) before)
  | Sremaining => field_of c Fremaining cur + sumZ (map (field_of c Fcapacity) after)
  end.
Proof.
  unfold rule_ok, eval_rule. destruct r as [n i p x]. cbn [r_name r_init r_prev r_next].
  destruct (expected n) as [[ei ep] en] eqn:E. intros H.
  apply andb_true_iff in H. destruct H as [H Hn]. apply andb_true_iff in H. destruct H as [Hi Hp].
  apply term_eqb_eq in Hi. apply oterm_eqb_eq in Hp. apply oterm_eqb_eq in Hn. subst i p x.
  cbv zeta. destruct n; cbn in E; injection E as <- <- <-; cbn [opt_sum].
  - rewrite !sum_tone, app_length. cbn [length term_of]. lia.
  - rewrite !sum_tfield, map_app, sumZ_app. cbn [map term_of]. rewrite sumZ_cons. lia.
  - rewrite !sum_tfield, map_app, sumZ_app. cbn [map term_of]. rewrite sumZ_cons. lia.
  - rewrite !sum_tfield. cbn [term_of]. lia.
  - rewrite !sum_tfield. cbn [term_of]. lia.
Qed.

Theorem rules_compute_arena_stats c s i ch rs r :
  cur s = Cur i -> nth_error (chunks s) i = Some ch -> forallb rule_ok rs = true -> In r rs ->
  eval_rule c r (firstn i (chunks s)) ch (skipn (S i) (chunks s)) =
  let st := arena_stats c s in
  match r_name r with
  | Scount => st_count st | Ssize => st_size st | Scapacity => st_capacity st
  | Sallocated => st_allocated st | Sremaining => st_remaining st
  end.
Proof.
  intros Hc Hn Hall Hin. rewrite forallb_forall in Hall. specialize (Hall r Hin).
  rewrite (rule_ok_spec c r _ _ _ Hall). cbv zeta.
  rewrite <- (split_at _ _ _ Hn). unfold arena_stats, cur_chunk, chunks_before, chunks_after. rewrite Hc, Hn.
  destruct (r_name r); reflexivity.
Qed.
