(* ArenaInv2.v — the arena invariant through prepare, raw writes into a prepared region, commit
   (commit_ok), alloc_try_with returning Err and leaving scoped_aligned (entering and leaving an
   aligned region otherwise: ArenaExt.v); then every operation (op_ok2, op_resp_ok2, step_inv) and
   every history (hstep, run_inv). *)
From Coq Require Import ZArith List Lia.
From BS Require Import Word BumpSpec Arena ArenaInv ArenaExt.
Import ListNotations.
Open Scope Z_scope.

Theorem step_inv_prepare c s0 h es ea cap rev r :
  cfg_ok c -> inv c s0 -> resp_ok c s0 (es * cap) ea r ->
  inv c (fst (step c s0 (OPrepare h es ea cap rev) r)).
Proof.
  intros Hc Hinv Hr. apply inv_tick in Hinv.
  assert (Hr' : resp_ok c (tick s0) (es * cap) ea r) by (eapply resp_ok_ext; [|exact Hr]; reflexivity).
  cbn [step]. set (s := tick s0) in *.
  destruct (negb (is_top s h)); [exact Hinv|].
  destruct (IMAX <? es * cap + (ea - 1)); [exact Hinv|].
  destruct (raw_prepare_range c s (es * cap) ea r) as [s1 res] eqn:Ep.
  pose proof (inv_transfer c s s1 Hinv (proj1 (prepare_keeps c s (es * cap) ea r s1 res Hc (proj1 Hinv) Hr' Ep))) as Hi1.
  destruct res as [[st en]|e]; exact Hi1.
Qed.

(* what a caller of allocate_prepared_slice(_rev) owes: (ptr, cap) describe a range of the free
   space of the current chunk, aligned for the element type — what a successful prepare returned,
   with nothing allocated in between *)
Definition commit_ok (c : cfg) (s : arena) (es ea ptr len cap : Z) (rev : bool) : Prop :=
  let lo := if rev then ptr - cap * es else ptr in
  let hi := lo + cap * es in
  0 <= es /\ 0 <= len <= cap /\ pow2 ea /\ (ea | lo) /\ (ea | es) /\
  exists i ch, cur s = Cur i /\ nth_error (chunks s) i = Some ch /\
    (if up c then cpos ch <= lo /\ hi <= content_end c ch else content_start c ch <= lo /\ hi <= cpos ch).

(* the four commit variants in one: the `len` elements next to the allocated side become a live
   block *)
Lemma commit_core c s i ch es ea lo len cap dyn :
  cfg_ok c -> inv c s -> cur s = Cur i -> nth_error (chunks s) i = Some ch ->
  0 <= es -> 0 <= len <= cap -> pow2 ea -> (ea | lo) -> (ea | es) ->
  (if up c then cpos ch <= lo /\ lo + cap * es <= content_end c ch
   else content_start c ch <= lo /\ lo + cap * es <= cpos ch) ->
  let dst := if up c then lo else lo + cap * es - len * es in
  inv c (fst (add_block (set_cur_pos s (commit_pos c (malign s) ea dyn (if up c then dst + len * es else dst)))
                        dst (len * es) ea)).
Proof.
  intros Hc Hinv Ec En Hes Hlen Hea Hlo Hdes Hfree dst.
  pose proof Hinv as ((Hok & _ & Hm & _) & _).
  pose proof (Forall_nth_error _ _ _ _ Hok En) as [Hgeo Hpos].
  pose proof (geom_bounds c Hc ch Hgeo) as (_ & _ & _ & _ & Hs16 & He16 & _).
  assert (Hb0 : 0 <= len * es) by nia.
  assert (Hle : len * es <= cap * es) by nia.
  assert (Hmul : forall k, (ea | lo + k * es)) by (intros k; apply Z.divide_add_r; [exact Hlo|apply Z.divide_mul_r; exact Hdes]).
  set (x := if up c then dst + len * es else dst) in *.
  assert (Hxa : (ea | x) /\ (ea | dst)).
  { unfold x, dst. destruct (up c); [split; [apply Hmul|exact Hlo]|].
    replace (lo + cap * es - len * es) with (lo + (cap - len) * es) by lia. split; apply Hmul. }
  assert (Hx : content_start c ch <= x <= content_end c ch) by (unfold x, dst; destruct (up c); lia).
  destruct (commit_pos_in_range c (malign s) ea dyn x _ _ Hm Hea (proj1 Hxa) Hs16 He16 Hx) as (Hr & Hdiv & Hdir).
  set (np := commit_pos c (malign s) ea dyn x) in *. unfold x in Hdir.
  assert (Hin : in_chunk c ch dst (len * es)) by (unfold in_chunk, dst; destruct (up c); lia).
  assert (Hi2 : inv c (set_cur_pos s np)).
  { apply (set_cur_pos_free_side c s i ch np Hc Hinv Ec En Hr Hdiv). unfold dst in Hdir. destruct (up c); lia. }
  destruct (set_cur_pos_fields s i ch np Ec En) as [G1 G2].
  apply (inv_add_block c (set_cur_pos s np) dst (len * es) ea Hi2 Hb0 (proj2 Hxa)).
  - exists i, (set_pos ch np). rewrite G1, G2, Ec.
    split; [apply nth_error_set_nth_eq; eapply nth_error_some_lt; exact En|].
    split; [exact Hin|]. split; [lia|]. intros _ _. cbn [set_pos cpos]. destruct (up c); lia.
  - intros b Hbin. rewrite (proj1 (set_cur_pos_frame s np)) in Hbin.
    destruct (Z_le_gt_dec (bsize b) 0) as [Hz|Hz]; [left; exact Hz|].
    destruct (live_block_vs_cur c s i ch b Hc Hinv Ec En Hbin ltac:(lia)) as [Hs|Hdis].
    + unfold disjoint_rng, dst. destruct (up c); lia.
    + apply Hdis; assumption.
Qed.

Theorem step_inv_commit c s0 h es ea ptr len cap rev dyn r :
  cfg_ok c -> inv c s0 -> commit_ok c s0 es ea ptr len cap rev ->
  inv c (fst (step c s0 (OCommit h es ea ptr len cap rev dyn) r)).
Proof.
  intros Hc Hinv Hok. apply inv_tick in Hinv.
  assert (Hok' : commit_ok c (tick s0) es ea ptr len cap rev) by exact Hok. clear Hok.
  cbn [step]. set (s := tick s0) in *.
  destruct Hok' as (Hes & Hlen & Hea & Hlo & Hdes & i & ch & Ec & En & Hfree).
  (* the bytes copied first (reverse upwards, forward downwards) do not matter *)
  assert (Hmem : forall m, inv c (upd_mem s m)) by (intros m; eapply inv_ext; [..|exact Hinv]; reflexivity).
  pose proof (fun m => commit_core c (upd_mem s m) i ch es ea _ len cap dyn Hc (Hmem m) Ec En Hes Hlen Hea Hlo Hdes Hfree) as Hcopy.
  pose proof (commit_core c s i ch es ea _ len cap dyn Hc Hinv Ec En Hes Hlen Hea Hlo Hdes Hfree) as Hplain.
  cbv zeta in Hcopy, Hplain.
  destruct rev; destruct (up c); unfold add_block; cbn [fst].
  - (* reverse, upwards: contents move to the start of the range *) apply Hcopy.
  - (* reverse, downwards: contents already end at the end of the range *)
    replace (ptr - len * es) with (ptr - cap * es + cap * es - len * es) by lia. exact Hplain.
  - (* forward, upwards *) exact Hplain.
  - (* forward, downwards: contents move to the end of the range *) apply Hcopy.
Qed.

Lemma chunk_prepare_range c ch size align st en :
  valid_layout size align -> (align | size) -> chunk_prepare c ch size align = Some (st, en) ->
  (align | st) /\ (align | en) /\ size <= en - st /\
  (if up c then cpos ch <= st /\ en <= content_end c ch else content_start c ch <= st /\ en <= cpos ch).
Proof.
  intros Hl Hmul H. unfold chunk_prepare in H.
  destruct (up c); [apply spec_prep_up_maximal in H|apply spec_prep_down_maximal in H]; tauto.
Qed.

(* every prefix of the prepared slice may be committed, as long as nothing else is allocated in
   between *)
Theorem prepare_gives_commit_ok c s0 h es ea cap rev r ptr cap' :
  cfg_ok c -> inv c s0 -> resp_ok c s0 (es * cap) ea r ->
  0 < es -> 0 <= cap -> pow2 ea -> (ea | es) ->
  o_res (snd (step c s0 (OPrepare h es ea cap rev) r)) = RRange ptr cap' ->
  forall len, 0 <= len <= cap' ->
  commit_ok c (fst (step c s0 (OPrepare h es ea cap rev) r)) es ea ptr len cap' rev.
Proof.
  intros Hc Hinv Hr Hes Hcap Hea Hdes Hres len Hlen. apply inv_tick in Hinv.
  assert (Hr' : resp_ok c (tick s0) (es * cap) ea r) by (eapply resp_ok_ext; [|exact Hr]; reflexivity).
  cbn [step] in *. set (s := tick s0) in *.
  destruct (negb (is_top s h)); [discriminate|].
  destruct (Z.ltb_spec IMAX (es * cap + (ea - 1))) as [|Hfit]; [discriminate|].
  destruct (raw_prepare_range c s (es * cap) ea r) as [s1 res] eqn:Ep.
  destruct (prepare_keeps c s (es * cap) ea r s1 res Hc (proj1 Hinv) Hr' Ep) as [_ Hloc].
  destruct res as [[st en]|e]; [|discriminate]. cbn [snd fst o_res] in *.
  destruct Hloc as (i & ch & Ec & En & Hcp).
  assert (Hl : valid_layout (es * cap) ea) by (split; [exact Hea|split; [nia|exact Hfit]]).
  destruct (chunk_prepare_range c ch _ _ st en Hl (Z.divide_mul_l _ _ _ Hdes) Hcp) as (A1 & A2 & A3 & A4).
  (* the capacity handed out: as many elements as fit into the range *)
  set (k := (en - st) / es) in *.
  assert (Hk : es * k <= en - st /\ 0 <= k) by (split; [apply Z.mul_div_le; lia|apply Z.div_pos; nia]).
  assert (Ek : cap' = k) by (destruct rev; injection Hres as _ <-; reflexivity). subst cap'.
  assert (Elo : (if rev then ptr - k * es else ptr) = if up c then st else en - k * es)
    by (destruct rev, (up c); injection Hres as <-; lia).
  unfold commit_ok. rewrite Elo.
  split; [lia|]. split; [exact Hlen|]. split; [exact Hea|]. split.
  { destruct (up c); [exact A1|]. apply Z.divide_sub_r; [exact A2|apply Z.divide_mul_r; exact Hdes]. }
  split; [exact Hdes|]. exists i, ch. split; [exact Ec|]. split; [exact En|]. destruct (up c); lia.
Qed.

Lemma fast_or_slow_prefix {R} c s i ch size align (f : chunk -> option (R * chunk)) r s1 res :
  (forall ch0 x ch1, f ch0 = Some (x, ch1) -> same_geom ch0 ch1) ->
  cur s = Cur i -> nth_error (chunks s) i = Some ch ->
  fast_or_slow c s size align f r = (s1, res) ->
  (forall k, (k < i)%nat -> nth_error (chunks s1) k = nth_error (chunks s) k) /\
  exists ch1, nth_error (chunks s1) i = Some ch1 /\ same_geom ch ch1.
Proof.
  intros Hgeo Ec En H. pose proof (nth_error_some_lt _ _ _ En) as Hlt.
  destruct (fast_or_slow_cases c s size align f r s1 res H) as [(i' & ch' & x & ch1 & Ec' & En' & Ef & -> & _)|[Hslow|((i' & Ec' & En') & _)]].
  - rewrite Ec in Ec'. injection Ec' as <-. rewrite En in En'. injection En' as <-. cbn [chunks cur upd_chunks].
    split; [intros k Hk; apply nth_error_set_nth_neq; lia|].
    exists ch1. split; [apply nth_error_set_nth_eq; exact Hlt|exact (Hgeo _ _ _ Ef)].
  - (* the slow path leaves chunk i as it is *)
    rewrite Ec in Hslow. destruct (proj2 (in_another_chunk_shape _ _ _ _ _ _ _ _ _ Hslow) i eq_refl Hlt) as (A & _).
    split; [intros k Hk; apply A; lia|].
    exists ch. split; [rewrite A by lia; exact En|apply same_geom_refl].
  - congruence.
Qed.

Lemma raw_prepare_keeps c s size align r s' res :
  cfg_ok c -> ginv c s -> resp_ok c s size align r ->
  raw_prepare c s size align r = (s', res) -> transfer c s s'.
Proof.
  intros Hc Hg Hr H. rewrite raw_prepare_fast_or_slow in H.
  exact (proj1 (fast_or_slow_readonly_keeps c _ _ s size align r s' res Hc Hg Hr (prepare_sized_action_ok c (malign s) size align _)
                  (prepare_sized_readonly c (malign s) size align) H)).
Qed.

Lemma filter_all_true {A} (l : list A) : filter (fun _ => true) l = l.
Proof. induction l as [|x l IH]; [reflexivity|]. cbn. rewrite IH. reflexivity. Qed.

Lemma checkpoint_valid_later c s s1 e keep :
  inv c s -> live s1 = live s -> malign s1 = malign s ->
  (forall i ch, cur s = Cur i -> nth_error (chunks s) i = Some ch ->
     (forall k, (k < i)%nat -> nth_error (chunks s1) k = nth_error (chunks s) k) /\
     exists ch1, nth_error (chunks s1) i = Some ch1 /\ same_geom ch ch1) ->
  cp_valid_gen c s1 (mkCp (cur s) (match cur_chunk s with Some ch => cpos ch | None => 0 end) e) keep.
Proof.
  intros Hinv Hlive Hmal Hshape. unfold cp_valid_gen. cbn [cp_state cp_addr]. rewrite Hlive, Hmal.
  destruct (cur s) as [i| |] eqn:Ec.
  - destruct (ginv_cur c s i (proj1 Hinv) Ec) as (ch & En & [_ Hpos] & Hmp). unfold cur_chunk. rewrite Ec, En.
    destruct (Hshape i ch eq_refl En) as (Hpre & ch1 & En1 & Hsg). destruct (same_geom_content c _ _ Hsg) as [E1 E2].
    exists ch1. split; [exact En1|]. split; [rewrite <- E1, <- E2; exact Hpos|]. split; [exact Hmp|].
    intros b Hin _. destruct (inv_live_block c s b Hinv Hin) as (_ & _ & Hpl).
    exact (placed_placed_at c s _ i ch ch1 _ _ Ec En Hpre En1 Hsg Hpl).
  - intros b Hin _. rewrite (inv_no_live_unalloc c s Hinv) in Hin; [exact Hin|]. intros i0. rewrite Ec. discriminate.
  - destruct Hinv as ((_ & _ & _ & Hcur) & _). rewrite Ec in Hcur. exact Hcur.
Qed.

(* alloc_try_with(_mut) whose closure returns Err: allocate (or prepare), then rewind to where the
   operation started *)
Theorem step_inv_try_err c s0 h mutable size align r :
  cfg_ok c -> inv c s0 -> valid_layout size align -> resp_ok c s0 size align r ->
  inv c (fst (step c s0 (OTryErr h mutable size align) r)).
Proof.
  intros Hc Hinv Hl Hr. apply inv_tick in Hinv.
  assert (Hr' : resp_ok c (tick s0) size align r) by (eapply resp_ok_ext; [|exact Hr]; reflexivity).
  cbn [step]. set (s := tick s0) in *.
  destruct (negb (is_top s h)); [exact Hinv|].
  destruct (if mutable then raw_prepare c s size align r else raw_alloc c s size align r) as [s1 res] eqn:Ea.
  assert (Hkeeps : transfer c s s1).
  { destruct mutable.
    - exact (raw_prepare_keeps c s size align r s1 res Hc (proj1 Hinv) Hr' Ea).
    - destruct (raw_alloc_post c s size align r s1 res Hc (proj1 Hinv) Hl Hr' Ea) as (A1 & A2 & A3 & _).
      exact (conj A1 (conj A2 A3)). }
  pose proof (inv_transfer c s s1 Hinv Hkeeps) as Hi1. destruct Hkeeps as (Hfr & _).
  destruct res as [p|e]; [|exact Hi1]. cbn [fst].
  (* every block is kept: do_reset_to_winv with the filter that is always true *)
  replace s1 with (upd_live s1 (filter (fun _ => true) (live s1))) at 1
    by (rewrite filter_all_true; destruct s1; reflexivity).
  apply do_reset_to_winv; [exact Hc|exact (inv_winv c _ Hi1)|].
  apply (checkpoint_valid_later c s s1 (epoch s) _ Hinv (proj1 Hfr) (frame_malign _ _ Hfr)).
  intros i ch Ec En.
  destruct mutable; [rewrite raw_prepare_fast_or_slow in Ea|];
    refine (fast_or_slow_prefix c s i ch size align _ r s1 _ _ Ec En Ea).
  - intros ch0 x ch1 Hx. rewrite (prepare_sized_readonly _ _ _ _ _ _ _ Hx). apply same_geom_refl.
  - intros ch0 x ch1 Hx. rewrite (chunk_alloc_set_pos _ _ _ _ _ _ _ Hx). apply same_geom_set_pos.
Qed.

(* In the code this is ONE event: the closure returns, the type-level alignment is the outer one
   again, and the scope guard's drop resets to its checkpoint.  The model has two steps; between
   them only the weak invariant holds, after both the invariant holds again. *)
Theorem scoped_aligned_exit_inv c s0 r r' h cp inner outer rest :
  cfg_ok c -> inv c s0 -> aligns s0 = inner :: outer :: rest -> valid_min_align outer ->
  cp_valid c (fst (step c s0 (OAlignPop false) r)) cp ->
  inv c (fst (step c (fst (step c s0 (OAlignPop false) r)) (OResetTo h cp) r')).
Proof.
  intros Hc Hinv Hal Hout Hcp. apply step_reset_to_from_winv; [exact Hc| |exact Hcp].
  apply inv_tick in Hinv. cbn [step]. set (s := tick s0) in *.
  assert (Hal' : aligns s = inner :: outer :: rest) by exact Hal. rewrite Hal'. cbn [andb fst].
  apply (winv_ext c s); try reflexivity; [exact Hout|apply inv_winv; exact Hinv].
Qed.

(* the contract of each operation: what the safe API guarantees by types, or the documented
   contract of the unsafe entry points (reset_to's checkpoint, allocate_prepared_slice's range) *)
Definition op_ok2 (c : cfg) (s : arena) (o : op) : Prop :=
  match o with
  | OAlignPush _ n => valid_min_align n
  | OAlignPop realign =>
    match aligns s with
    | inner :: outer :: _ => valid_min_align outer /\ (realign = true \/ outer <= inner)
    | _ => True
    end
  | OCommit _ es ea ptr len cap rev _ => commit_ok c s es ea ptr len cap rev
  | _ => op_ok c s o
  end.

Definition op_resp_ok2 (c : cfg) (s : arena) (o : op) (r : resp) : Prop :=
  match o with
  | OPrepare _ es ea cap _ => resp_ok c s (es * cap) ea r
  | _ => op_resp_ok c s o r
  end.

Theorem step_inv c s o r :
  cfg_ok c -> inv c s -> op_ok2 c s o -> op_resp_ok2 c s o r -> inv c (fst (step c s o r)).
Proof.
  intros Hc Hinv Hok Hr.
  destruct o; try (apply step_inv_partial; [exact Hc|exact Hinv|reflexivity|exact Hok|exact Hr]).
  - apply step_inv_try_err; assumption.
  - apply step_inv_align_push; assumption.
  - cbn [op_ok2] in Hok. destruct (aligns s) as [|inner [|outer rest]] eqn:Ea.
    + apply inv_tick in Hinv. cbn [step]. assert (E : aligns (tick s) = []) by exact Ea. rewrite E. exact Hinv.
    + apply inv_tick in Hinv. cbn [step]. assert (E : aligns (tick s) = [inner]) by exact Ea. rewrite E. exact Hinv.
    + destruct Hok as [Hv [->|Hle]].
      * eapply step_inv_align_pop; eassumption.
      * destruct realign; [eapply step_inv_align_pop; eassumption|eapply step_inv_align_pop_not_lowered; eassumption].
  - apply step_inv_prepare; assumption.
  - (* OWriteRaw *) cbn [step fst]. eapply inv_ext; [..|exact Hinv]; reflexivity.
  - apply step_inv_commit; assumption.
Qed.

(* histories: single operations, and the exit of a scoped_aligned region with a lowered alignment
   as the pair it is in the model *)
Inductive hstep :=
| HOp (o : op) (r : resp)
| HScopedAlignedExit (h : nat) (cp : checkpoint) (r r' : resp).

Definition hrun1 (c : cfg) (s : arena) (x : hstep) : arena :=
  match x with
  | HOp o r => fst (step c s o r)
  | HScopedAlignedExit h cp r r' => fst (step c (fst (step c s (OAlignPop false) r)) (OResetTo h cp) r')
  end.

Definition hok1 (c : cfg) (s : arena) (x : hstep) : Prop :=
  match x with
  | HOp o r => op_ok2 c s o /\ op_resp_ok2 c s o r
  | HScopedAlignedExit h cp r r' =>
    exists inner outer rest, aligns s = inner :: outer :: rest /\ valid_min_align outer /\
      cp_valid c (fst (step c s (OAlignPop false) r)) cp
  end.

Fixpoint hrun (c : cfg) (s : arena) (xs : list hstep) : arena :=
  match xs with [] => s | x :: rest => hrun c (hrun1 c s x) rest end.
Fixpoint hok (c : cfg) (s : arena) (xs : list hstep) : Prop :=
  match xs with [] => True | x :: rest => hok1 c s x /\ hok c (hrun1 c s x) rest end.

Theorem run_inv c xs : forall s, cfg_ok c -> inv c s -> hok c s xs -> inv c (hrun c s xs).
Proof.
  induction xs as [|x rest IH]; intros s Hc Hinv Hok; [exact Hinv|].
  destruct Hok as [H1 H2]. cbn [hrun]. apply IH; [exact Hc| |exact H2].
  destruct x as [o r|h cp r r']; cbn [hrun1 hok1] in *.
  - destruct H1. apply step_inv; assumption.
  - destruct H1 as (inner & outer & rest0 & Ea & Hv & Hcp). eapply scoped_aligned_exit_inv; eassumption.
Qed.
