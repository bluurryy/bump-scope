(* ArenaStats.v — C10: bookkeeping and reported statistics are coherent in every state that
   satisfies the arena invariant (hence, by ArenaInv.run_inv_partial, after every operation). *)
From Coq Require Import ZArith List Lia.
From BS Require Import Arena ArenaInv.
Import ListNotations.
Open Scope Z_scope.

Lemma sumZ_app l1 l2 : sumZ (l1 ++ l2) = sumZ l1 + sumZ l2.
Proof. induction l1 as [|a l IH]; cbn; [reflexivity|]. unfold sumZ in *. cbn. lia. Qed.

Lemma sumZ_nonneg l : Forall (fun x => 0 <= x) l -> 0 <= sumZ l.
Proof. induction 1; cbn; unfold sumZ in *; cbn; lia. Qed.

Lemma split_at {A} (l : list A) i x : nth_error l i = Some x -> l = firstn i l ++ x :: skipn (S i) l.
Proof.
  revert i; induction l as [|a l IH]; intros [|i] H; cbn in *; try discriminate.
  - injection H as ->. reflexivity.
  - f_equal. apply IH. exact H.
Qed.

Section Stats.
  Variable c : cfg.
  Hypothesis Hc : cfg_ok c.

  Lemma chunk_capacity_facts ch : chunk_ok c ch ->
    0 <= capacity c ch /\ capacity c ch + hs c = csize ch /\
    allocated_in c ch + remaining_in c ch = capacity c ch /\
    0 <= allocated_in c ch /\ 0 <= remaining_in c ch.
  Proof.
    intros [Hg Hp]. pose proof (geom_bounds c Hc ch Hg) as (_ & Hle & _).
    unfold capacity, allocated_in, remaining_in, content_start, content_end in *.
    destruct (up c); repeat split; lia.
  Qed.

  Theorem stats_identities s :
    ginv c s ->
    let st := arena_stats c s in
    st_allocated st + st_remaining st = st_capacity st /\
    st_capacity st <= st_size st /\
    0 <= st_allocated st /\ 0 <= st_remaining st /\
    (st_count st = match cur s with Cur _ => Z.of_nat (length (chunks s)) | _ => 0 end).
  Proof.
    intros (Hok & _ & _ & Hcur). cbv zeta. unfold arena_stats, cur_chunk, chunks_before, chunks_after.
    destruct (cur s) as [i| |] eqn:Ec; [|cbn; lia|contradiction].
    destruct Hcur as (ch & En & _). rewrite En. cbn [st_allocated st_remaining st_capacity st_size st_count].
    pose proof (split_at _ _ _ En) as Hsplit.
    pose proof (Forall_nth_error _ _ _ _ Hok En) as Hchok.
    destruct (chunk_capacity_facts ch Hchok) as (C0 & C1 & C2 & C3 & C4).
    assert (Hcap : forall l, Forall (chunk_ok c) l -> 0 <= sumZ (map (capacity c) l) /\
                   sumZ (map (capacity c) l) <= sumZ (map csize l)).
    { induction 1 as [|x l Hx Hl IH]; cbn; unfold sumZ in *; cbn; [lia|].
      destruct (chunk_capacity_facts x Hx) as (X0 & X1 & _). destruct Hc as [(_ & _ & _ & _ & H32 & _) _]. lia. }
    rewrite Hsplit in Hok. apply Forall_app in Hok as [Hf Hsk]. apply Forall_inv_tail in Hsk.
    destruct (Hcap _ Hf) as [F0 F1]. destruct (Hcap _ Hsk) as [S0 S1].
    assert (E : forall f, sumZ (map f (chunks s)) =
               sumZ (map f (firstn i (chunks s))) + (f ch + sumZ (map f (skipn (S i) (chunks s))))).
    { intros f. rewrite Hsplit at 1. rewrite map_app, sumZ_app. reflexivity. }
    rewrite (E (capacity c)), (E csize).
    destruct Hc as [(_ & _ & _ & _ & H32 & _) _].
    repeat split; lia.
  Qed.

  Theorem position_and_geometry s :
    ginv c s ->
    (forall ch, In ch (chunks s) ->
       content_start c ch <= cpos ch <= content_end c ch /\ (16 | csize ch) /\
       hs c <= csize ch /\ csize ch <= cgranted ch /\ creq ch <= csize ch /\
       (up c = false -> (ha c | csize ch))) /\
    (forall ch, cur_chunk s = Some ch -> (malign s | cpos ch)).
  Proof.
    intros Hg. pose proof Hg as (Hok & _). split.
    - intros ch Hin. rewrite Forall_forall in Hok.
      destruct (Hok ch Hin) as [(_ & _ & G3 & G4 & G5 & G6 & G7 & _) Hp]. repeat split; try tauto; lia.
    - intros ch Hcc. destruct (cur_chunk_spec s ch Hcc) as (i & Ec & En).
      exact (proj2 (ginv_cur_chunk c s i ch Hg Ec En)).
  Qed.

  Theorem dummy_reports_zero s : (forall i, cur s <> Cur i) -> arena_stats c s = mkStats 0 0 0 0 0.
  Proof.
    intros H. unfold arena_stats, cur_chunk. destruct (cur s) as [i| |]; [exfalso; apply (H i); reflexivity|reflexivity|reflexivity].
  Qed.
End Stats.

(* non-vacuity: a concrete reachable state *)
Example stats_example :
  let c := mkCfg true true true true 512 32 16 true in
  let s := fst (init_with_size c 1 512 (Some (4096, 496))) in
  arena_stats c s = mkStats 1 496 464 0 464.
Proof. vm_compute. reflexivity. Qed.
