(* C19: a BumpPool hands every arena to one user at a time — over the model Pool.v, for ALL schedules. *)
From Coq Require Import List Arith Lia Permutation.
From BS Require Import Pool.
Import ListNotations.

Definition arenas (s : pool) : list nat := idle s ++ map snd (held s) ++ leaked s.

Record inv (s : pool) : Prop := mkInv {
  I_nodup : NoDup (arenas s ++ released s);
  I_range : forall a, In a (arenas s ++ released s) <-> a < created s;
  I_guards : NoDup (map fst (held s));
  I_count : created s = length (idle s) + live s + length (released s);
  I_rel : gone s = false -> released s = [];
  I_peak : live s <= peak s /\ created s <= peak s + length (released s) + 0 * 0;
  I_gone : gone s = true -> idle s = [] /\ held s = [];
  I_blocks : forall a b, In (a, b) (blocks s) -> In a (arenas s) /\ b < nextb s
}.

Lemma lookup_split g l a :
  lookup g l = Some a -> Permutation l ((g, a) :: remove_guard g l) /\ In (g, a) l.
Proof.
  induction l as [|[g' a'] t IH]; cbn; [discriminate|].
  destruct (Nat.eqb_spec g g') as [->|Hne].
  - intros H. injection H as ->. split; [reflexivity|left; reflexivity].
  - intros H. destruct (IH H) as [P I]. split; [|right; exact I].
    rewrite perm_swap. apply perm_skip. exact P.
Qed.

Lemma lookup_none g l : lookup g l = None -> ~ In g (map fst l).
Proof.
  induction l as [|[g' a'] t IH]; cbn; [tauto|].
  destruct (Nat.eqb_spec g g') as [->|Hne]; [discriminate|]. intros H [E|I]; [congruence|exact (IH H I)].
Qed.

Lemma remove_guard_spec g l a : lookup g l = Some a ->
  Permutation (map snd l) (a :: map snd (remove_guard g l)) /\
  (NoDup (map fst l) -> NoDup (map fst (remove_guard g l))) /\ length l = S (length (remove_guard g l)).
Proof.
  intros El. apply lookup_split in El as [P _]. split; [exact (Permutation_map snd P)|]. split; [|exact (Permutation_length P)].
  intros G. apply (Permutation_NoDup (Permutation_map fst P)), NoDup_cons_iff in G. apply G.
Qed.

(* I_nodup and I_range together *)
Lemma census_iff l n : NoDup l /\ (forall a, In a l <-> a < n) <-> Permutation l (seq 0 n).
Proof.
  split.
  - intros [N R]. apply NoDup_Permutation; [exact N|apply seq_NoDup|]. intros a. rewrite R, in_seq. lia.
  - intros P. split.
    + apply (Permutation_NoDup (Permutation_sym P)), seq_NoDup.
    + intros a. rewrite P, in_seq. lia.
Qed.

Lemma census_count i (h : list (nat * nat)) l c :
  Permutation (i ++ map snd h ++ l) (seq 0 c) -> c = length i + length h + length l.
Proof. intros P. apply Permutation_length in P. rewrite seq_length, !app_length, map_length in P. lia. Qed.

(* I_count follows from the census, and by I_range the arena a of a block is one of the pool's
   exactly when a < c *)
Lemma inv_not_gone i h l c p bl nb :
  inv (mkPool i h l c p bl nb [] false) <->
  Permutation (i ++ map snd h ++ l) (seq 0 c) /\ NoDup (map fst h) /\
  length h + length l <= p /\ c <= p /\ forall a b, In (a, b) bl -> a < c /\ b < nb.
Proof.
  split.
  - intros [N R G _ _ [Pl Pc] _ B]. unfold arenas, live in *. cbn in *. rewrite app_nil_r in *.
    split; [apply census_iff; split; assumption|]. split; [exact G|]. split; [exact Pl|]. split; [lia|].
    intros a b Hin. destruct (B a b Hin) as [Ha Hb]. split; [apply R, Ha|exact Hb].
  - intros (P & G & Pl & Pc & B). destruct (proj2 (census_iff _ _) P) as [N R].
    constructor; unfold arenas, live; cbn; rewrite ?app_nil_r; try assumption; try discriminate; try lia.
    + rewrite (census_count _ _ _ _ P). lia.
    + reflexivity.
    + intros a b Hin. destruct (B a b Hin) as [Ha Hb]. split; [apply R, Ha|exact Hb].
Qed.

Theorem inv_init : inv init.
Proof. apply inv_not_gone. repeat apply conj; cbn; try lia; try constructor. Qed.

Lemma kept_block_leaked (lk : list nat) (bl : list (nat * nat)) a b :
  In (a, b) (filter (fun ab => existsb (Nat.eqb (fst ab)) lk) bl) -> In (a, b) bl /\ In a lk.
Proof.
  intros Hin. apply filter_In in Hin. destruct Hin as [Hin Hl]. split; [exact Hin|].
  apply existsb_exists in Hl. destruct Hl as (x & Hx & E). apply Nat.eqb_eq in E. cbn in E. subst x. exact Hx.
Qed.

(* Every accepted action but the drop of the pool leaves it live and moves one arena from one of
   idle / held / leaked to another, or adds the new number c to held: the census is kept by
   Permutation_middle, or by seq_S. *)
Theorem step_inv s x : inv s -> inv (fst (step s x)).
Proof.
  destruct s as [i h l c p bl nb r gn]. intros Hinv. unfold step.
  cbn [gone idle held leaked created peak blocks nextb released].
  destruct gn; [exact Hinv|].
  pose proof (I_rel _ Hinv eq_refl) as Rel. cbn in Rel. subst r.
  pose proof (proj1 (inv_not_gone _ _ _ _ _ _ _) Hinv) as (P & G & Pl & Pc & B).
  (* DropG and Forget: the guard's arena goes to idle, or to leaked *)
  assert (Hmove : forall g a (drop : bool), lookup g h = Some a ->
            inv (mkPool (if drop then a :: i else i) (remove_guard g h) (if drop then l else a :: l) c p bl nb [] false)).
  { intros g a drop El. destruct (remove_guard_spec _ _ _ El) as (PM & G' & Hl).
    apply inv_not_gone. destruct drop; cbn [length]; repeat apply conj; try lia; auto;
      rewrite <- P, PM; cbn [app]; rewrite <- !Permutation_middle; reflexivity. }
  (* Reset and ResetToStart: only blocks go *)
  assert (Hrewind : h = [] ->
            inv (mkPool i [] l c p (filter (fun ab => existsb (Nat.eqb (fst ab)) l) bl) nb [] false)).
  { intros ->. apply inv_not_gone. repeat apply conj; try assumption.
    intros a b Hin. apply kept_block_leaked in Hin. apply B, Hin. }
  destruct x as [g ok|g|g|g| | |].
  - (* Get *)
    destruct (lookup g h) eqn:El; [exact Hinv|]. apply lookup_none in El.
    destruct i as [|a rest]; [destruct ok; [|exact Hinv]|]; cbn [fst]; apply inv_not_gone; cbn [map fst snd length];
      repeat apply conj; try lia; try (constructor; assumption).
    + rewrite seq_S. cbn. rewrite <- P. apply Permutation_cons_append.
    + rewrite (census_count _ _ _ _ P). cbn. lia.
    + intros a b Hin. destruct (B a b Hin). lia.
    + rewrite <- P. symmetry. apply Permutation_middle.
    + exact B.
  - (* DropG *) destruct (lookup g h) as [a|] eqn:El; [exact (Hmove g a true El)|exact Hinv].
  - (* Forget *) destruct (lookup g h) as [a|] eqn:El; [exact (Hmove g a false El)|exact Hinv].
  - (* Alloc *)
    destruct (lookup g h) as [a|] eqn:El; [|exact Hinv]. apply lookup_split in El as [_ Hin].
    cbn [fst]. apply inv_not_gone. repeat apply conj; try assumption.
    intros a' b [E|Hb].
    + injection E as <- <-. split; [|lia]. apply (in_map snd) in Hin.
      assert (Ha : In a (seq 0 c)) by (rewrite <- P; auto using in_or_app). apply in_seq in Ha. lia.
    + destruct (B a' b Hb). lia.
  - (* Reset *) destruct h; [exact (Hrewind eq_refl)|exact Hinv].
  - (* ResetToStart *) destruct h; [exact (Hrewind eq_refl)|exact Hinv].
  - (* PoolDrop: the idle arenas are released *)
    destruct h; [|exact Hinv]. cbn [map app] in P.
    assert (P' : Permutation (l ++ i) (seq 0 c)) by (rewrite <- P; apply Permutation_app_comm).
    destruct (proj2 (census_iff _ _) P') as [N R]. pose proof (census_count i [] l c P) as C. cbn [length] in C, Pl.
    cbn [fst]. constructor; unfold arenas, live; cbn; rewrite ?app_nil_r; try assumption; try discriminate; try lia.
    + intros _. split; reflexivity.
    + intros a b Hin. apply kept_block_leaked in Hin. split; [apply Hin|apply (B a b), Hin].
Qed.

Theorem run_inv xs : forall s, inv s -> inv (run s xs).
Proof. induction xs as [|x xs IH]; intros s H; [exact H|]. cbn. apply IH. apply step_inv. exact H. Qed.

Corollary reachable_inv xs : inv (run init xs).
Proof. apply run_inv. apply inv_init. Qed.

Lemma NoDup_app_inv {A} (l l' : list A) :
  NoDup (l ++ l') -> NoDup l /\ NoDup l' /\ forall x, In x l -> In x l' -> False.
Proof.
  induction l as [|y t IH]; cbn; intros H; [split; [constructor|split; [exact H|intros x []]]|].
  inversion H as [|? ? Hn Ht]; subst. destruct (IH Ht) as (N1 & N2 & D). split; [|split; [exact N2|]].
  - constructor; [|exact N1]. intros Hi. apply Hn, in_or_app. left. exact Hi.
  - intros x [->|Hx] Hx'; [apply Hn, in_or_app; right; exact Hx'|exact (D x Hx Hx')].
Qed.

Lemma NoDup_map_inj {A B} (f : A -> B) l x y : NoDup (map f l) -> In x l -> In y l -> f x = f y -> x = y.
Proof.
  induction l as [|z t IH]; cbn; [tauto|]. intros N [->|Hx] [->|Hy] E; inversion N as [|? ? Hn N']; subst.
  - reflexivity.
  - exfalso. apply Hn. rewrite E. apply in_map, Hy.
  - exfalso. apply Hn. rewrite <- E. apply in_map, Hx.
  - exact (IH N' Hx Hy E).
Qed.

Theorem exclusive xs g1 g2 a :
  let s := run init xs in
  In (g1, a) (held s) -> In (g2, a) (held s) -> g1 = g2.
Proof.
  intros s H1 H2. pose proof (I_nodup s (reachable_inv xs)) as N.
  unfold arenas in N. apply NoDup_app_inv in N as (N & _). apply NoDup_app_inv in N as (_ & N & _).
  apply NoDup_app_inv in N as (N & _).
  pose proof (NoDup_map_inj snd _ _ _ N H1 H2 eq_refl) as E. congruence.
Qed.

Theorem held_not_idle xs g a :
  let s := run init xs in In (g, a) (held s) -> ~ In a (idle s) /\ ~ In a (leaked s).
Proof.
  intros s H. pose proof (reachable_inv xs) as [N _ _ _ _ _ _ _]. fold s in N.
  unfold arenas in N. apply NoDup_app_inv in N as (N & _). apply NoDup_app_inv in N as (_ & N & D).
  apply NoDup_app_inv in N as (_ & _ & D'). apply (in_map snd) in H. cbn in H.
  split; intros Hi; [apply (D a Hi), in_or_app; left; exact H|exact (D' a H Hi)].
Qed.

Theorem get_reuses_idle s g ok a rest :
  gone s = false -> lookup g (held s) = None -> idle s = a :: rest ->
  snd (step s (Get g ok)) = OArena a false /\ created (fst (step s (Get g ok))) = created s.
Proof. intros Hg Hl Hi. unfold step. rewrite Hg, Hl, Hi. split; reflexivity. Qed.

Theorem created_le_peak xs : let s := run init xs in gone s = false -> created s <= peak s.
Proof.
  intros s Hg. pose proof (reachable_inv xs) as [_ _ _ _ Rel P _ _]. fold s in Rel, P.
  rewrite (Rel Hg) in P. cbn in P. lia.
Qed.

Theorem live_le_peak xs : let s := run init xs in live s <= peak s.
Proof. intros s. pose proof (reachable_inv xs) as [_ _ _ _ _ P _ _]. exact (proj1 P). Qed.
Lemma step_peak s x : peak (fst (step s x)) = peak s \/ peak (fst (step s x)) = live (fst (step s x)).
Proof.
  assert (M : forall a b, Nat.max a b = a \/ Nat.max a b = b) by (intros a b; destruct (Nat.max_dec a b); auto).
  unfold step. destruct (gone s); [left; reflexivity|]. destruct x as [g ok|g|g|g| | |].
  - (* Get *)
    destruct (lookup g (held s)); [left; reflexivity|].
    destruct (idle s); [destruct ok; [|left; reflexivity]|]; apply M.
  - (* DropG *) destruct (lookup g (held s)); left; reflexivity.
  - (* Forget *) destruct (lookup g (held s)); left; reflexivity.
  - (* Alloc *) destruct (lookup g (held s)); left; reflexivity.
  - (* Reset *) destruct (held s); left; reflexivity.
  - (* ResetToStart *) destruct (held s); left; reflexivity.
  - (* PoolDrop *) destruct (held s); left; reflexivity.
Qed.

Theorem peak_witnessed xs : exists k, k <= length xs /\ live (run init (firstn k xs)) = peak (run init xs).
Proof.
  assert (Gen : forall xs s, (exists k, k <= length xs /\ live (run s (firstn k xs)) = peak (run s xs)) \/ peak (run s xs) = peak s).
  { clear xs. induction xs as [|x xs IH]; intros s; [right; reflexivity|].
    cbn [run fold_left]. fold (run (fst (step s x)) xs).
    destruct (IH (fst (step s x))) as [(k & Hk & E)|E].
    - left. exists (S k). split; [cbn; lia|]. cbn [firstn run fold_left]. exact E.
    - rewrite E.
      destruct (step_peak s x) as [Hp|Hp]; [right; exact Hp|].
      left. exists 1. split; [cbn; lia|]. cbn [firstn run fold_left]. symmetry. exact Hp. }
  destruct (Gen xs init) as [H|H]; [exact H|].
  exists 0. split; [lia|]. cbn. rewrite H. reflexivity.
Qed.

Definition rewinds (x : act) : bool := match x with Reset | ResetToStart | PoolDrop => true | _ => false end.

Theorem allocations_survive s x ab :
  rewinds x = false -> In ab (blocks s) -> In ab (blocks (fst (step s x))).
Proof.
  intros Hx Hin. unfold step. destruct (gone s); [exact Hin|].
  destruct x as [g ok|g|g|g| | |]; try discriminate.
  - (* Get *) destruct (lookup g (held s)); [exact Hin|]. destruct (idle s); [destruct ok|]; exact Hin.
  - (* DropG *) destruct (lookup g (held s)); exact Hin.
  - (* Forget *) destruct (lookup g (held s)); exact Hin.
  - (* Alloc *) destruct (lookup g (held s)); [right|]; exact Hin.
Qed.

Theorem allocations_survive_schedule xs : forall s ab,
  forallb (fun x => negb (rewinds x)) xs = true -> In ab (blocks s) -> In ab (blocks (run s xs)).
Proof.
  induction xs as [|x xs IH]; intros s ab Hall Hin; [exact Hin|].
  cbn in Hall. apply andb_prop in Hall. destruct Hall as [Hx Hxs]. cbn. apply IH; [exact Hxs|].
  apply allocations_survive; [destruct (rewinds x); [discriminate|reflexivity]|exact Hin].
Qed.

(* reset / reset_to_start / drop of the pool need exclusive access: with a live guard they are
   not steps a safe program can take *)
Theorem rewind_needs_no_guard s x : rewinds x = true -> held s <> [] -> step s x = (s, OReject).
Proof.
  intros Hx Hh. unfold step. destruct (gone s); [reflexivity|].
  destruct x; try discriminate; destruct (held s); congruence.
Qed.

Theorem pool_reset_rewinds_all s :
  gone s = false -> held s = [] ->
  let s' := fst (step s Reset) in
  idle s' = idle s /\ created s' = created s /\
  forall a b, In (a, b) (blocks s') -> In a (leaked s).
Proof.
  intros Hg Hh. unfold step. rewrite Hg, Hh. cbn. split; [reflexivity|]. split; [reflexivity|].
  intros a b Hin. apply kept_block_leaked in Hin. apply Hin.
Qed.

Theorem pool_drop_releases_each_idle_arena_once xs :
  let s := run init xs in gone s = false -> held s = [] ->
  let s' := fst (step s PoolDrop) in
  released s' = idle s /\ NoDup (released s') /\ (forall a, In a (leaked s) -> ~ In a (released s')).
Proof.
  intros s Hg Hh s'. pose proof (reachable_inv xs) as [N _ _ _ Rel _ _ _]. fold s in N, Rel.
  specialize (Rel Hg). unfold s', step. rewrite Hg, Hh. cbn [fst released]. rewrite Rel, app_nil_r.
  unfold arenas in N. rewrite Rel, app_nil_r, Hh in N. cbn in N.
  apply NoDup_app_inv in N as (N & _ & D). split; [reflexivity|]. split; [exact N|].
  intros a Hl Hi. exact (D a Hi Hl).
Qed.

(* non-vacuity *)
Example pool_example :
  let s := run init [Get 1 true; Get 2 true; Alloc 1; DropG 1; Get 3 true; Get 4 false; Forget 2; Alloc 3; DropG 3] in
  created s = 2 /\ peak s = 2 /\ idle s = [0] /\ leaked s = [1] /\ blocks s = [(0, 1); (0, 0)].
Proof. vm_compute. repeat split; reflexivity. Qed.
