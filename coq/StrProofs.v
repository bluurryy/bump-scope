(* C09 over the string model (Str.v): byte-level edits equal the std definitions, contents stay
   valid UTF-8 on every path including unwinding, panics happen exactly off boundaries / out of
   range, lossy and UTF-16 conversions give valid UTF-8, C strings end at the first NUL. *)
From Coq Require Import ZArith List Lia Bool.
From BS Require Import Utf8 Colls CollsProofs Str.
Import ListNotations.

Lemma skipn_app_l {A} (a b : list A) n : n <= length a -> skipn n (a ++ b) = skipn n a ++ b.
Proof. intros H. rewrite skipn_app. replace (n - length a) with 0 by lia. reflexivity. Qed.

(* Every edit works on a buffer h ++ m ++ t ++ spare: head, the part that goes, the tail that
   moves, spare capacity.  The positions the code computes are kept as variables, each with the
   equation that says what it is in terms of the parts. *)
Lemma write_at_app x m y dst bytes :
  dst = length x -> length m = length bytes -> write_at (x ++ m ++ y) dst bytes = x ++ bytes ++ y.
Proof.
  intros -> Hm. unfold write_at. rewrite firstn_app_exact by reflexivity.
  rewrite (app_assoc x m), skipn_app_exact by (rewrite app_length; lia). reflexivity.
Qed.

(* memmove of the tail to where it belongs once r stands in the place of m, then memcpy of r *)
Lemma move_tail_write h m t spare r a src dst n N :
  a = length h -> src = a + length m -> dst = a + length r -> n = length t -> N = dst + n ->
  length r - length m <= length spare ->
  firstn N (write_at (copy_within (h ++ m ++ t ++ spare) src dst n) a r) = h ++ r ++ t.
Proof.
  intros -> -> -> -> -> Hsp. unfold copy_within.
  replace (firstn (length t) (skipn (length h + length m) (h ++ m ++ t ++ spare))) with t.
  2:{ rewrite app_assoc, skipn_app_exact by (rewrite app_length; reflexivity).
      symmetry. apply firstn_app_exact. reflexivity. }
  rewrite firstn_app_2, <- app_assoc.
  rewrite write_at_app by (rewrite ?firstn_length, ?app_length; lia).
  rewrite (app_assoc r), (app_assoc h). apply firstn_app_exact. rewrite !app_length. lia.
Qed.

Theorem insert_bytes_code_spec s spare idx bytes :
  idx <= length s -> length bytes <= length spare ->
  insert_bytes_code s spare idx bytes = firstn idx s ++ bytes ++ skipn idx s.
Proof.
  intros H1 H2. unfold insert_bytes_code.
  replace (s ++ spare) with (firstn idx s ++ [] ++ skipn idx s ++ spare)
    by (cbn [app]; rewrite app_assoc, firstn_skipn; reflexivity).
  apply move_tail_write; rewrite ?firstn_length, ?skipn_length; cbn [length]; lia.
Qed.

Theorem remove_code_spec s idx next :
  idx <= next <= length s -> remove_code s idx next = firstn idx s ++ skipn next s.
Proof.
  intros H. unfold remove_code, copy_within.
  rewrite (firstn_all2 (skipn next s)) by (rewrite skipn_length; lia).
  rewrite app_assoc. apply firstn_app_exact. rewrite app_length, firstn_length, skipn_length. lia.
Qed.

Lemma replace_range_code_app h m t spare r a b :
  a = length h -> b = a + length m -> length r <= length m + length spare ->
  replace_range_code (h ++ m ++ t) spare a b r = h ++ r ++ t.
Proof.
  intros -> -> Hsp. unfold replace_range_code. rewrite <- !app_assoc.
  replace (length h + length m - length h) with (length m) by lia.
  destruct (Nat.eqb_spec (length m) (length r)) as [E|E].
  - rewrite write_at_app by (reflexivity || exact E). rewrite (app_assoc r), (app_assoc h (r ++ t)).
    apply firstn_app_exact. rewrite !app_length. lia.
  - apply move_tail_write; rewrite ?app_length; lia.
Qed.

Theorem replace_range_code_spec s spare a b r :
  a <= b <= length s -> length r - (b - a) <= length spare ->
  replace_range_code s spare a b r = firstn a s ++ r ++ skipn b s.
Proof.
  intros [H1 H2] H3. rewrite (range_split s a b H1) at 1.
  apply replace_range_code_app; rewrite firstn_length, ?skipn_length; lia.
Qed.

Definition V (s : list Z) : Prop := valid s = true.
Definition scalars (cs : list Z) : Prop := Forall (fun c => scalar c = true) cs.

Lemma V_enc cs : scalars cs -> V (enc cs).
Proof. intros H. apply valid_iff. exists cs. split; [exact H|reflexivity]. Qed.

Lemma valid_splice s a b r :
  V s -> V r -> boundaryb s a = true -> boundaryb s b = true -> V (firstn a s ++ r ++ skipn b s).
Proof.
  intros Hs Hr Ha Hb. destruct (valid_split s a Hs Ha) as [H1 _]. destruct (valid_split s b Hs Hb) as [_ H2].
  apply valid_app; [exact H1|]. apply valid_app; assumption.
Qed.

Lemma valid_mid s a b :
  V s -> boundaryb s a = true -> boundaryb s b = true -> V (firstn (b - a) (skipn a s)).
Proof.
  intros Hs Ha Hb. destruct (valid_split s a Hs Ha) as [_ H2].
  apply (valid_split (skipn a s) (b - a) H2), boundaryb_skipn; assumption.
Qed.

Theorem push_valid s c : V s -> scalar c = true -> V (s_after (s_push s c)).
Proof. intros Hs Hc. cbn. apply valid_app; [exact Hs|apply valid_encode; exact Hc]. Qed.
Theorem push_str_valid s r : V s -> V r -> V (s_after (s_push_str s r)).
Proof. intros Hs Hr. cbn. apply valid_app; assumption. Qed.

Theorem insert_str_spec s spare idx r :
  boundaryb s idx = true -> length r <= length spare ->
  s_insert_str s spare idx r = SOk (firstn idx s ++ r ++ skipn idx s) [] [].
Proof.
  intros Hb Hsp. unfold s_insert_str. rewrite Hb. rewrite insert_bytes_code_spec; [reflexivity| |exact Hsp].
  apply boundary_le_length. exact Hb.
Qed.
Theorem insert_str_panics_iff s spare idx r :
  s_panicked (s_insert_str s spare idx r) = true <-> boundaryb s idx = false.
Proof. unfold s_insert_str. destruct (boundaryb s idx); cbn; split; congruence. Qed.
Theorem insert_str_valid s spare idx r :
  V s -> V r -> length r <= length spare -> V (s_after (s_insert_str s spare idx r)).
Proof.
  intros Hs Hr Hsp. destruct (boundaryb s idx) eqn:Hb.
  - rewrite insert_str_spec by assumption. cbn. apply valid_splice; assumption.
  - unfold s_insert_str. rewrite Hb. exact Hs.
Qed.
Theorem insert_valid s spare idx c :
  V s -> scalar c = true -> length (encode c) <= length spare -> V (s_after (s_insert s spare idx c)).
Proof. intros Hs Hc Hsp. apply insert_str_valid; [exact Hs|apply valid_encode; exact Hc|exact Hsp]. Qed.

Lemma remove_cases s idx (P : sres -> Prop) :
  V s ->
  (boundaryb s idx = false \/ length s <= idx -> P (SPanic s)) ->
  (forall c, boundaryb s idx = true -> idx < length s -> scalar c = true ->
     firstn (length (encode c)) (skipn idx s) = encode c ->
     V (firstn idx s ++ skipn (idx + length (encode c)) s) ->
     P (SOk (firstn idx s ++ skipn (idx + length (encode c)) s) [c] [])) ->
  P (s_remove s idx).
Proof.
  intros Hs Hbad Hok. unfold s_remove. destruct (boundaryb s idx) eqn:Hb; [|apply Hbad; left; reflexivity].
  destruct (nth_error s idx) as [b|] eqn:En.
  - destruct (next_boundary s idx b Hs Hb En) as (Hnb & c & Hc & Hw & Hf & Hd).
    pose proof (boundary_le_length _ _ Hnb) as Hle. assert (Hlt : idx < length s) by (apply nth_error_Some; congruence).
    rewrite Hd, Hw, remove_code_spec by lia. rewrite <- Hw in *.
    apply Hok; [reflexivity|exact Hlt|exact Hc|exact Hf|]. exact (valid_splice s idx _ [] Hs valid_nil Hb Hnb).
  - apply nth_error_None in En. rewrite (skipn_all2 s En). apply Hbad. right. exact En.
Qed.

Theorem remove_spec s idx :
  V s -> boundaryb s idx = true -> idx < length s ->
  exists c, scalar c = true /\ firstn (length (encode c)) (skipn idx s) = encode c /\
            s_remove s idx = SOk (firstn idx s ++ skipn (idx + length (encode c)) s) [c] [] /\
            V (firstn idx s ++ skipn (idx + length (encode c)) s).
Proof.
  intros Hs Hb Hlt. apply remove_cases; [exact Hs|intros [H|H]; [congruence|lia]|].
  intros c _ _ Hc Hf Hv. exists c. repeat split; assumption.
Qed.

Theorem remove_panics_iff s idx :
  V s -> (s_panicked (s_remove s idx) = true <-> boundaryb s idx = false \/ length s <= idx).
Proof.
  intros Hs. apply remove_cases; [exact Hs|intros H; split; [intros _; exact H|reflexivity]|].
  intros c Hb Hlt _ _ _. cbn. split; [discriminate|intros [H|H]; [congruence|lia]].
Qed.

Theorem remove_valid s idx : V s -> V (s_after (s_remove s idx)).
Proof. intros Hs. apply remove_cases; [exact Hs|intros _; exact Hs|intros c _ _ _ _ Hv; exact Hv]. Qed.

Theorem pop_spec s cs :
  scalars cs -> s = enc cs ->
  s_pop s = match rev cs with [] => SOk s [] [] | c :: r => SOk (enc (rev r)) [c] [] end.
Proof.
  intros Hcs ->. unfold s_pop. rewrite decode_enc by exact Hcs.
  destruct (rev cs) as [|c r] eqn:Er; [reflexivity|].
  destruct (removelast_rev_cons cs c r Er) as [E _].
  f_equal. rewrite E, enc_app. cbn [enc flat_map]. rewrite app_nil_r.
  apply firstn_app_exact. rewrite app_length. lia.
Qed.

Theorem pop_valid s : V s -> V (s_after (s_pop s)).
Proof.
  intros Hs. destruct (proj1 (valid_iff s) Hs) as (cs & Hcs & E). rewrite (pop_spec s cs Hcs E).
  destruct (rev cs) as [|c r] eqn:Er; [exact Hs|]. cbn. apply V_enc.
  destruct (removelast_rev_cons cs c r Er) as [E2 _].
  unfold scalars in *. rewrite E2 in Hcs. apply Forall_app in Hcs. tauto.
Qed.

Theorem truncate_panics_iff s n :
  s_panicked (s_truncate s n) = true <-> (n <= length s /\ boundaryb s n = false).
Proof.
  unfold s_truncate. destruct (Nat.leb_spec n (length s)); [|cbn; split; [discriminate|lia]].
  destruct (boundaryb s n); cbn; split; try discriminate; try tauto. intros [_ H']; discriminate.
Qed.
Theorem truncate_spec s n : boundaryb s n = true -> s_truncate s n = SOk (firstn n s) [] [].
Proof.
  intros Hb. unfold s_truncate. pose proof (boundary_le_length _ _ Hb). 
  destruct (Nat.leb_spec n (length s)); [|lia]. rewrite Hb. reflexivity.
Qed.
Theorem truncate_valid s n : V s -> V (s_after (s_truncate s n)).
Proof.
  intros Hs. unfold s_truncate. destruct (n <=? length s); [|exact Hs].
  destruct (boundaryb s n) eqn:Hb; [|exact Hs]. cbn. apply (valid_split s n Hs Hb).
Qed.

Lemma sretain_go_valid f : forall rest k kept,
  V kept -> scalars rest -> V (s_after (sretain_go f k kept rest)).
Proof.
  induction rest as [|c r IH]; intros k kept Hk Hr; cbn [sretain_go]; [exact Hk|].
  inversion Hr as [|? ? Hc Hr']; subst.
  destruct (f k c) as [[|]|]; [apply IH; [apply valid_app; [exact Hk|apply valid_encode; exact Hc]|exact Hr']
                             |apply IH; assumption|exact Hk].
Qed.

(* s_after: after normal completion AND after a panic of the callback at any invocation *)
Theorem retain_valid f s : V s -> V (s_after (s_retain f s)).
Proof.
  intros Hs. destruct (proj1 (valid_iff s) Hs) as (cs & Hcs & ->). unfold s_retain. rewrite decode_enc by exact Hcs.
  apply sretain_go_valid; [apply valid_nil|exact Hcs].
Qed.

Fixpoint filter_kz (g : nat -> Z -> bool) (k : nat) (l : list Z) : list Z :=
  match l with [] => [] | c :: r => if g k c then c :: filter_kz g (S k) r else filter_kz g (S k) r end.

Lemma sretain_go_spec (g : nat -> Z -> bool) : forall rest k kept,
  sretain_go (fun k c => Ret (g k c)) k kept rest = SOk (kept ++ enc (filter_kz g k rest)) [] [].
Proof.
  induction rest as [|c r IH]; intros k kept; cbn [sretain_go filter_kz].
  - cbn. rewrite app_nil_r. reflexivity.
  - destruct (g k c); rewrite IH; [|reflexivity]. cbn [enc flat_map]. rewrite <- app_assoc. reflexivity.
Qed.

Theorem retain_is_filter (g : nat -> Z -> bool) cs :
  scalars cs -> s_retain (fun k c => Ret (g k c)) (enc cs) = SOk (enc (filter_kz g 0 cs)) [] [].
Proof. intros Hcs. unfold s_retain. rewrite decode_enc by exact Hcs. apply sretain_go_spec. Qed.

Definition range_bad (s : list Z) (a b : nat) : Prop :=
  b < a \/ length s < b \/ boundaryb s a = false \/ boundaryb s b = false.

(* the checks `self[range]`-style operations make before touching anything, in the order the
   code makes them; `ok` is what happens when they pass *)
Definition range_checked (s : list Z) (a b : nat) (ok : sres) : sres :=
  if (b <? a) || (length s <? b) then SPanic s
  else if negb (boundaryb s a) then SPanic s
  else if negb (boundaryb s b) then SPanic s
  else ok.

Lemma range_checked_cases s a b ok (P : sres -> Prop) :
  (range_bad s a b -> P (SPanic s)) ->
  (a <= b <= length s -> boundaryb s a = true -> boundaryb s b = true -> P ok) ->
  P (range_checked s a b ok).
Proof.
  intros Hbad Hok. unfold range_checked, range_bad in *.
  apply range_guard_cases; [intros [L|L]; apply Hbad; [left|right; left]; exact L|intros L].
  destruct (boundaryb s a); [|apply Hbad; right; right; left; reflexivity].
  destruct (boundaryb s b); [|apply Hbad; right; right; right; reflexivity].
  apply Hok; [exact L|reflexivity|reflexivity].
Qed.

Lemma in_range_not_bad s a b :
  a <= b <= length s -> boundaryb s a = true -> boundaryb s b = true -> ~ range_bad s a b.
Proof. unfold range_bad. intros Hr -> -> [H|[H|[H|H]]]; discriminate || lia. Qed.

Lemma range_checked_panics_iff s a b ok :
  (a <= b <= length s -> boundaryb s a = true -> boundaryb s b = true -> s_panicked ok = false) ->
  (s_panicked (range_checked s a b ok) = true <-> range_bad s a b).
Proof.
  intros Hok. apply range_checked_cases.
  - intros Hbad. split; [intros _; exact Hbad|reflexivity].
  - intros Hr Ha Hb. rewrite (Hok Hr Ha Hb). split; [discriminate|].
    intros Hbad. destruct (in_range_not_bad s a b Hr Ha Hb Hbad).
Qed.

Lemma range_checked_valid s a b ok :
  V s -> (a <= b <= length s -> boundaryb s a = true -> boundaryb s b = true -> V (s_after ok)) ->
  V (s_after (range_checked s a b ok)).
Proof. intros Hs Hok. apply range_checked_cases; [intros _; exact Hs|exact Hok]. Qed.

Lemma range_checked_ok s a b ok :
  a <= b <= length s -> boundaryb s a = true -> boundaryb s b = true -> range_checked s a b ok = ok.
Proof.
  intros Hr Ha Hb. apply range_checked_cases; [|reflexivity].
  intros Hbad. destruct (in_range_not_bad s a b Hr Ha Hb Hbad).
Qed.

Lemma drain_checked s a b kf kb forget :
  s_drain s a b kf kb forget =
  range_checked s a b
    match decode (firstn (b - a) (skipn a s)) with
    | Some cs =>
      let kf' := Nat.min kf (length cs) in
      let kb' := Nat.min kb (length cs - kf') in
      SOk (if forget then s else firstn a s ++ skipn b s) (firstn kf' cs ++ rev (lastn kb' cs)) []
    | None => SPanic s
    end.
Proof. reflexivity. Qed.

Lemma replace_range_checked s spare a b r :
  s_replace_range s spare a b r = range_checked s a b (SOk (replace_range_code s spare a b r) [] []).
Proof. reflexivity. Qed.

Lemma extend_from_within_checked s a b :
  s_extend_from_within s a b = range_checked s a b (SOk (s ++ firstn (b - a) (skipn a s)) [] []).
Proof. reflexivity. Qed.

Theorem drain_panics_iff s a b kf kb forget :
  V s -> (s_panicked (s_drain s a b kf kb forget) = true <-> range_bad s a b).
Proof.
  intros Hs. rewrite drain_checked. apply range_checked_panics_iff. intros Hr Ha Hb.
  pose proof (valid_mid s a b Hs Ha Hb) as Hm. unfold V, valid in Hm.
  destruct (decode (firstn (b - a) (skipn a s))); [reflexivity|discriminate].
Qed.

Theorem drain_spec s a b kf kb :
  V s -> a <= b <= length s -> boundaryb s a = true -> boundaryb s b = true ->
  exists cs, scalars cs /\ firstn (b - a) (skipn a s) = enc cs /\
    forall forget, exists ys, s_drain s a b kf kb forget = SOk (if forget then s else firstn a s ++ skipn b s) ys [] /\
      (length cs <= kf -> ys = cs).
Proof.
  intros Hs Hr Ha Hb. pose proof (valid_mid s a b Hs Ha Hb) as Hm.
  destruct (proj1 (valid_iff _) Hm) as (cs & Hcs & Em). exists cs. split; [exact Hcs|]. split; [exact Em|].
  intros forget. rewrite drain_checked, range_checked_ok, Em, decode_enc by assumption.
  eexists. split; [reflexivity|]. intros Hk.
  rewrite Nat.min_r by exact Hk. rewrite Nat.sub_diag, Nat.min_0_r.
  unfold lastn. rewrite Nat.sub_0_r, skipn_all. cbn. rewrite app_nil_r. apply firstn_all.
Qed.

Theorem drain_valid s a b kf kb forget : V s -> V (s_after (s_drain s a b kf kb forget)).
Proof.
  intros Hs. rewrite drain_checked. apply range_checked_valid; [exact Hs|]. intros _ Ha Hb.
  destruct (decode (firstn (b - a) (skipn a s))); [|exact Hs].
  destruct forget; [exact Hs|]. apply (valid_splice s a b [] Hs valid_nil Ha Hb).
Qed.

Theorem replace_range_panics_iff s spare a b r :
  s_panicked (s_replace_range s spare a b r) = true <-> range_bad s a b.
Proof. rewrite replace_range_checked. apply range_checked_panics_iff. reflexivity. Qed.

Theorem replace_range_spec s spare a b r :
  a <= b <= length s -> boundaryb s a = true -> boundaryb s b = true ->
  length r - (b - a) <= length spare ->
  s_replace_range s spare a b r = SOk (firstn a s ++ r ++ skipn b s) [] [].
Proof.
  intros Hr Ha Hb Hsp. rewrite replace_range_checked, range_checked_ok, replace_range_code_spec by assumption.
  reflexivity.
Qed.

Theorem replace_range_valid s spare a b r :
  V s -> V r -> length r - (b - a) <= length spare -> V (s_after (s_replace_range s spare a b r)).
Proof.
  intros Hs Hr Hsp. rewrite replace_range_checked. apply range_checked_valid; [exact Hs|]. intros Hab Ha Hb.
  cbn. rewrite replace_range_code_spec by assumption. apply valid_splice; assumption.
Qed.

Theorem extend_from_within_panics_iff s a b :
  s_panicked (s_extend_from_within s a b) = true <-> range_bad s a b.
Proof. rewrite extend_from_within_checked. apply range_checked_panics_iff. reflexivity. Qed.

Theorem extend_from_within_valid s a b : V s -> V (s_after (s_extend_from_within s a b)).
Proof.
  intros Hs. rewrite extend_from_within_checked. apply range_checked_valid; [exact Hs|]. intros Hr Ha Hb.
  apply valid_app; [exact Hs|]. apply valid_mid; [exact Hs|exact Ha|exact Hb].
Qed.

(* with the boundary check of empty ranges in place (fixed = true) the two shortcuts (range
   ending at the end, range starting at 0) are only faster ways to the general result *)
Lemma split_off_checked s a b :
  s_split_off true s a b =
  range_checked s a b (SOk (firstn a s ++ skipn b s) [] (firstn (b - a) (skipn a s))).
Proof.
  unfold s_split_off, range_checked.
  destruct (range_check_spec a b (length s)) as [_|Hr]; [reflexivity|].
  destruct (Nat.eqb_spec b (length s)) as [->|Eb].
  { rewrite boundary_len. destruct (boundaryb s a); [|reflexivity]. cbn [negb].
    rewrite skipn_all, app_nil_r, (firstn_all2 (skipn a s)) by (rewrite skipn_length; lia). reflexivity. }
  destruct (Nat.eqb_spec a 0) as [->|Ea].
  { cbn [boundaryb negb]. destruct (boundaryb s b); [|reflexivity]. cbn [negb firstn app]. rewrite Nat.sub_0_r. reflexivity. }
  rewrite andb_false_r. destruct (boundaryb s a); [|reflexivity]. destruct (boundaryb s b); [|reflexivity].
  cbn [negb]. rewrite (split_off_code_spec s a b Hr). reflexivity.
Qed.

Theorem split_off_panics_iff s a b :
  s_panicked (s_split_off true s a b) = true <-> range_bad s a b.
Proof. rewrite split_off_checked. apply range_checked_panics_iff. reflexivity. Qed.

(* the pinned commit (fixed = false) differs on an empty range strictly inside the string, which
   it accepts without looking at the position, and nowhere else *)
Lemma split_off_pinned fixed s a b :
  s_split_off fixed s a b =
  if negb fixed && ((a =? b) && (0 <? a) && (a <? length s)) then SOk s [] [] else s_split_off true s a b.
Proof.
  destruct fixed; [reflexivity|]. cbn [negb andb].
  unfold s_split_off. destruct (Nat.eqb_spec a b) as [<-|_]; [|reflexivity]. cbn [andb negb].
  rewrite Nat.ltb_irrefl. cbn [orb]. destruct (Nat.eqb_spec a 0) as [->|Ha]; [reflexivity|].
  destruct (Nat.ltb_spec 0 a); [cbn [andb]|lia].
  destruct (Nat.ltb_spec (length s) a), (Nat.eqb_spec a (length s)), (Nat.ltb_spec a (length s)); reflexivity || lia.
Qed.

Theorem split_off_spec fixed s a b :
  a <= b <= length s -> boundaryb s a = true -> boundaryb s b = true ->
  s_split_off fixed s a b = SOk (firstn a s ++ skipn b s) [] (firstn (b - a) (skipn a s)).
Proof.
  intros Hr Ha Hb. rewrite split_off_pinned, split_off_checked, range_checked_ok by assumption.
  destruct (Nat.eqb_spec a b) as [<-|_]; [|destruct fixed; reflexivity].
  destruct (negb fixed && _); [|reflexivity].
  rewrite Nat.sub_diag. cbn [firstn]. rewrite firstn_skipn. reflexivity.
Qed.

Theorem split_off_valid fixed s a b :
  V s -> V (s_after (s_split_off fixed s a b)) /\
         match s_split_off fixed s a b with SOk _ _ off => V off | SPanic _ => True end.
Proof.
  intros Hs. rewrite split_off_pinned.
  destruct (negb fixed && _); [split; [exact Hs|apply valid_nil]|].
  rewrite split_off_checked. apply range_checked_cases; [intros _; split; [exact Hs|exact I]|].
  intros Hr Ha Hb. split; [apply (valid_splice s a b [] Hs valid_nil Ha Hb)|apply valid_mid; tauto].
Qed.

(* the pinned commit did NOT satisfy the panic clause.  This witness, replayed on the
   implementation, is the finding recorded in known_findings.json *)
Theorem split_off_pinned_refuted :
  exists s a b, V s /\ range_bad s a b /\ s_panicked (s_split_off false s a b) = false.
Proof.
  exists [196; 141; 120]%Z, 1, 1. split; [reflexivity|]. split; [right; right; left; reflexivity|reflexivity].
Qed.
Theorem split_off_pinned_partial s a b :
  ~ (a = b /\ 0 < a < length s) ->
  (s_panicked (s_split_off false s a b) = true <-> range_bad s a b).
Proof.
  intros Hne. rewrite split_off_pinned. cbn [negb andb].
  destruct (Nat.eqb_spec a b), (Nat.ltb_spec 0 a), (Nat.ltb_spec a (length s)); try apply split_off_panics_iff.
  exfalso. apply Hne. lia.
Qed.

Theorem from_utf8_spec v : s_from_utf8 v = (if valid v then Some v else None).
Proof. reflexivity. Qed.

Theorem lossy_fuel_valid : forall n l, V (lossy_fuel n l).
Proof.
  induction n as [|n IH]; intros l; destruct l as [|x xs]; try apply valid_nil.
  cbn [lossy_fuel]. destruct (decode1 (x :: xs)) as [[c rest]|] eqn:D.
  - destruct (decode1_sound _ _ _ D) as [_ Hc]. apply valid_app; [apply valid_encode; exact Hc|apply IH].
  - apply valid_app; [reflexivity|apply IH].
Qed.

Theorem from_utf8_lossy_valid v : V (s_from_utf8_lossy v).
Proof. apply lossy_fuel_valid. Qed.

Lemma lossy_fuel_S n l : l <> [] ->
  lossy_fuel (S n) l =
  match decode1 l with
  | Some (c, rest) => encode c ++ lossy_fuel n rest
  | None => REPLACEMENT ++ lossy_fuel n (skipn (invalid_len l) l)
  end.
Proof. destruct l; [congruence|reflexivity]. Qed.

Lemma lossy_fuel_enc : forall cs n, scalars cs -> length cs <= n -> lossy_fuel n (enc cs) = enc cs.
Proof.
  induction cs as [|c cs IH]; intros n Hs Hn; [destruct n; reflexivity|].
  inversion Hs as [|? ? Hc Hcs]; subst. destruct n as [|n]; [cbn in Hn; lia|].
  rewrite enc_cons, lossy_fuel_S, decode1_encode, IH by (apply encode_app_nonempty || assumption || cbn in Hn; lia).
  reflexivity.
Qed.

Theorem from_utf8_lossy_id v : V v -> s_from_utf8_lossy v = v.
Proof.
  intros Hv. destruct (proj1 (valid_iff v) Hv) as (cs & Hcs & ->). unfold s_from_utf8_lossy.
  apply lossy_fuel_enc; [exact Hcs|apply enc_length_ge].
Qed.

Lemma invalid_len_pos l : l <> [] -> 1 <= invalid_len l.
Proof.
  destruct l as [|b0 t0]; [congruence|]. intros _. unfold invalid_len.
  destruct ((224 <=? b0)%Z && (b0 <? 240)%Z).
  { destruct t0 as [|b1 t1]; [lia|]. destruct (second_ok3 b0 b1); lia. }
  destruct ((240 <=? b0)%Z && (b0 <? 245)%Z); [|lia].
  destruct t0 as [|b1 t1]; [lia|]. destruct (second_ok4 b0 b1); [|lia].
  destruct t1 as [|b2 t2]; [lia|]. destruct (cont b2); lia.
Qed.

Theorem lossy_fuel_enough : forall n m l, length l <= n -> length l <= m -> lossy_fuel n l = lossy_fuel m l.
Proof.
  induction n as [|n IH]; intros m l Hn Hm.
  - destruct l; [destruct m; reflexivity|cbn in Hn; lia].
  - destruct l as [|x xs]; [destruct m; reflexivity|]. destruct m as [|m]; [cbn in Hm; lia|].
    cbn [lossy_fuel]. destruct (decode1 (x :: xs)) as [[c rest]|] eqn:D.
    + pose proof (decode1_shorter _ _ _ D) as Hsh. f_equal. apply IH; cbn [length] in *; lia.
    + f_equal. pose proof (invalid_len_pos (x :: xs) ltac:(discriminate)) as Hp.
      apply IH; rewrite skipn_length; cbn [length] in *; lia.
Qed.

Definition unit16 (u : Z) : Prop := (0 <= u < 65536)%Z.

Lemma decode_utf16_scalar : forall n v, length v <= n -> Forall unit16 v ->
  Forall (fun o => match o with Some c => scalar c = true | None => True end) (decode_utf16 v).
Proof.
  induction n as [|n IH]; intros v Hn Hv; (destruct v as [|u t]; [constructor|]); cbn [length] in Hn; [lia|].
  inversion Hv as [|? ? Hu Ht]; subst. unfold unit16 in Hu. cbn [decode_utf16].
  pose proof (IH t ltac:(lia) Ht) as Rt.
  destruct ((u <? 55296)%Z || (57344 <=? u)%Z) eqn:E1; [constructor; [unfold scalar; lia|exact Rt]|].
  destruct (u <? 56320)%Z eqn:E2; [|constructor; [exact I|exact Rt]].
  destruct t as [|u2 t2]; [constructor; [exact I|constructor]|].
  inversion Ht as [|? ? Hu2 Ht2]; subst. unfold unit16 in Hu2.
  destruct ((56320 <=? u2)%Z && (u2 <? 57344)%Z) eqn:E3; [|constructor; [exact I|exact Rt]].
  constructor; [unfold scalar; lia|apply IH; [cbn [length] in Hn; lia|exact Ht2]].
Qed.

Lemma all_some_spec l : match all_some l with Some cs => l = map Some cs | None => In None l end.
Proof.
  induction l as [|[c|] t IH]; cbn [all_some]; [reflexivity| |left; reflexivity].
  destruct (all_some t); [cbn; f_equal; exact IH|right; exact IH].
Qed.

Theorem from_utf16_valid v s : Forall unit16 v -> s_from_utf16 v = Some s -> V s.
Proof.
  intros Hv H. unfold s_from_utf16 in H.
  pose proof (decode_utf16_scalar (length v) v ltac:(lia) Hv) as F. pose proof (all_some_spec (decode_utf16 v)) as S.
  destruct (all_some (decode_utf16 v)) as [cs|]; [|discriminate].
  injection H as <-. apply V_enc. rewrite S in F. apply Forall_map in F. exact F.
Qed.

(* None in decode_utf16: an unpaired surrogate *)
Theorem from_utf16_err_iff v : s_from_utf16 v = None <-> In None (decode_utf16 v).
Proof.
  unfold s_from_utf16. pose proof (all_some_spec (decode_utf16 v)) as S.
  destruct (all_some (decode_utf16 v)) as [cs|]; [|split; [intros _; exact S|reflexivity]].
  split; [discriminate|]. rewrite S. intros H. apply in_map_iff in H. destruct H as (c & E & _). discriminate.
Qed.

Theorem from_utf16_lossy_valid v : Forall unit16 v -> V (s_from_utf16_lossy v).
Proof.
  intros Hv. unfold s_from_utf16_lossy. apply V_enc.
  pose proof (decode_utf16_scalar (length v) v ltac:(lia) Hv) as H.
  induction H as [|o t Ho Ht IH]; [constructor|]. cbn [map]. constructor; [|exact IH].
  destruct o; [exact Ho|reflexivity].
Qed.

Theorem from_utf16_lossy_agrees v s : s_from_utf16 v = Some s -> s_from_utf16_lossy v = s.
Proof.
  unfold s_from_utf16, s_from_utf16_lossy. pose proof (all_some_spec (decode_utf16 v)) as S.
  destruct (all_some (decode_utf16 v)) as [cs|]; [|discriminate]. intros H. injection H as <-.
  rewrite S, map_map, map_id. reflexivity.
Qed.

Lemma into_cstr_spec s : s_into_cstr s = before_nul s ++ [0%Z].
Proof.
  unfold s_into_cstr. induction s as [|b t IH]; [reflexivity|]. cbn [nul_position before_nul].
  destruct (Z.eqb_spec b 0) as [->|Hne]; [reflexivity|].
  destruct (nul_position t) as [n|]; cbn [option_map] in *.
  - cbn [firstn app]. f_equal. exact IH.
  - cbn [app]. f_equal. exact IH.
Qed.

Lemma before_nul_no_nul s : ~ In 0%Z (before_nul s).
Proof.
  induction s as [|b t IH]; [cbn; tauto|]. cbn [before_nul]. destruct (Z.eqb_spec b 0); [cbn; tauto|].
  intros [H|H]; [congruence|exact (IH H)].
Qed.

Theorem into_cstr_contract s :
  exists text, s_into_cstr s = text ++ [0%Z] /\ ~ In 0%Z text /\
    exists rest, s = text ++ rest /\ (rest = [] \/ exists r, rest = 0%Z :: r).
Proof.
  exists (before_nul s). split; [apply into_cstr_spec|]. split; [apply before_nul_no_nul|].
  induction s as [|b t IH]; [exists []; split; [reflexivity|left; reflexivity]|]. cbn [before_nul].
  destruct (Z.eqb_spec b 0) as [->|Hne].
  - exists (0%Z :: t). split; [reflexivity|right; eexists; reflexivity].
  - destruct IH as (rest & E & Hr). exists rest. split; [cbn; f_equal; exact E|exact Hr].
Qed.

(* non-vacuity: a 1-, 2-, 3- and 4-byte character, edited in the middle *)
Example str_example :
  let s := enc [97; 269; 8364; 119070]%Z in
  V s /\ boundaryb s 3 = true /\ boundaryb s 2 = false /\
  s_remove s 1 = SOk (enc [97; 8364; 119070]%Z) [269%Z] [] /\
  s_panicked (s_remove s 2) = true /\
  s_from_utf8_lossy [97; 240; 159; 97; 237; 160; 128]%Z = ([97] ++ REPLACEMENT ++ [97] ++ REPLACEMENT ++ REPLACEMENT ++ REPLACEMENT)%Z.
Proof. vm_compute. repeat split; reflexivity. Qed.
